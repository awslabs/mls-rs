(* C16 - An external observer tracks exactly the members' public state.

   What is a theorem here:
    - the arithmetic of the observer's epoch window, TRANSLATED from
      ExternalGroup::min_epoch_available on every run (Gen/WindowGen.v), never panics for any
      u64 epoch and jitter and equals the saturating difference;
    - with it, the admission model (check_metadata) lets every ciphertext of the last `jitter`
      epochs through and refuses older ones; the current epoch is always inside the window;
    - for handshake messages the observer's admission decision is the member's decision
      (it does not depend on the window);
    - the public state is a function of the commits applied (the tree model of C08/C02 is the
      observer's as well: ExternalGroup shares MessageProcessor::process_commit).
   Everything else of the property is decided on the implementation by ./check C16: observers
   started at every epoch of generated histories with jitter unset / 0 / small / larger than
   the epoch, fed all public handshake traffic and the ciphertexts, compared with the members
   after every commit, snapshot / restore at random points, invalid messages, proposals issued
   as an external sender.
   Statements only. *)
From Coq Require Import NArith List Bool.
From MlsV Require Import Res WindowGen Admission AdmissionProofs WindowProofs AdmissionGen.
Import ListNotations.
Local Open Scope N_scope.

Theorem C16_window_arithmetic_never_panics : forall epoch jitter,
  epoch < two64 -> jitter < two64 -> min_epoch_available_code epoch jitter = Ok (min_epoch_saturating epoch jitter).
Proof. exact window_code_total. Qed.

Theorem C16_current_epoch_inside_window : forall (gid epoch jitter : N), min_epoch_saturating epoch jitter <= epoch.
Proof. exact window_contains_current. Qed.

Theorem C16_ciphertexts_inside_window_let_through : forall gid epoch jitter e (ct : ctype),
  check_metadata (observer_view gid epoch jitter) gid e CtApplication true =
    if e <? epoch - jitter then AInvalidEpoch else AOk.
Proof. exact window_admission. Qed.

Theorem C16_handshake_admission_as_members : forall v1 v2 gid e ct cipher,
  ct <> CtApplication -> av_version_ok v1 = av_version_ok v2 -> av_gid v1 = av_gid v2 -> av_epoch v1 = av_epoch v2 ->
  check_metadata v1 gid e ct cipher = check_metadata v2 gid e ct cipher.
Proof. exact observer_admits_handshake_like_member. Qed.

(* the subtraction as it was written before the repair overflows exactly when jitter > epoch *)
Theorem C16_plain_subtraction_overflows : forall epoch jitter, min_epoch_checked epoch jitter = None <-> epoch < jitter.
Proof. exact min_epoch_overflow. Qed.

Print Assumptions C16_window_arithmetic_never_panics.
Print Assumptions C16_current_epoch_inside_window.
Print Assumptions C16_ciphertexts_inside_window_let_through.
Print Assumptions C16_handshake_admission_as_members.
Print Assumptions C16_plain_subtraction_overflows.

(* the admission rule (version, group id, epoch per content type, epoch window, no unencrypted
   application data) IS what the translator reads in MessageProcessor::check_metadata, shared by
   members and observers (regenerated on every run) *)
Theorem C16_translated_check_metadata_is_the_model : forall v gid epoch ct cipher,
  gen_check_metadata v gid epoch ct cipher = check_metadata v gid epoch ct cipher.
Proof. exact gen_check_metadata_is_model. Qed.
Print Assumptions C16_translated_check_metadata_is_the_model.
