(* C14 - The shipped crypto providers are interchangeable.

   What a theorem can say here: the providers are three foreign-code libraries (OpenSSL, AWS-LC,
   RustCrypto crates); their agreement is decided by running them side by side (./check C14),
   against ONE reference that is fixed below:
    - the reference hash / MAC / KDF (Gallina SHA-2, HMAC, HKDF: Model/Sha2.v, Model/Hkdf.v) has,
      for EVERY input, the output sizes of the cipher suite and the prefix property of
      HKDF-Expand (so "expand to n bytes" does not depend on how a provider rounds to blocks);
      every provider is compared byte for byte with this reference;
    - the reference chain validation (Model/X509.v) is sound (an accepted chain yields the leaf's
      key and a path of certificates valid at the validation time, each named and signed by the
      next, each issuer a CA, ending in a trust anchor), complete for chains in issuer order,
      rejects every expired / not-yet-valid leaf, treats both ends of the validity period as
      included (RFC 5280 4.1.2.5), ignores what follows the anchor, rejects a broken link and
      an empty trust store, and without a validation time only drops the time checks; every
      provider's verdict is compared with this reference on generated PKIs.
   Statements only. *)
From Coq Require Import NArith List Bool.
From MlsV Require Import Sha2 Hkdf ShaProofs X509 X509Proofs.
Import ListNotations.

Theorem C14_reference_kdf_shape :
  forall H, mls_hash H ->
  (forall salt ikm, length (hkdf_extract H salt ikm) = h_len H) /\
  (forall key msg, length (hmac H key msg) = h_len H) /\
  (forall prk info len, length (hkdf_expand H prk info len) = len) /\
  (forall prk info l1 l2, (l1 <= l2)%nat -> firstn l1 (hkdf_expand H prk info l2) = hkdf_expand H prk info l1).
Proof. exact reference_kdf_shape. Qed.
Print Assumptions C14_reference_kdf_shape.

Theorem C14_reference_hash_is_bytes_of_the_right_length :
  forall P msg, Forall (fun b => (b < 256)%N) (sha P msg) /\
  ((sp_out P <= length (sp_h0 P) * N.to_nat (sp_w P / 8))%nat -> length (sha P msg) = sp_out P).
Proof. exact sha_shape. Qed.
Print Assumptions C14_reference_hash_is_bytes_of_the_right_length.

Theorem C14_chain_validation_sound :
  forall roots t chain k, validate roots t chain = Some k ->
  exists leaf rest, chain = leaf :: rest /\ key leaf = k /\ trusted roots t leaf.
Proof. exact validate_sound. Qed.
Print Assumptions C14_chain_validation_sound.

Theorem C14_chain_validation_complete_for_ordered_chains :
  forall roots t leaf rest, ordered_path roots t (leaf :: rest) -> validate roots t (leaf :: rest) = Some (key leaf).
Proof. exact validate_complete. Qed.
Print Assumptions C14_chain_validation_complete_for_ordered_chains.

Theorem C14_expired_or_not_yet_valid_leaf_rejected :
  forall roots x leaf rest, ((x < nb leaf)%N \/ (na leaf < x)%N) -> validate roots (Some x) (leaf :: rest) = None.
Proof. exact expired_or_not_yet_valid_leaf_rejected. Qed.
Print Assumptions C14_expired_or_not_yet_valid_leaf_rejected.

Theorem C14_validity_period_includes_both_ends :
  forall (leaf : cert) x, (nb leaf <= x <= na leaf)%N -> time_ok (Some x) leaf = true.
Proof. exact validity_period_is_inclusive. Qed.
Print Assumptions C14_validity_period_includes_both_ends.

Theorem C14_trust_needs_name_signature_and_ca :
  forall roots t c, trusted roots t c ->
  In c roots \/ exists p, issuer c = subject p /\ signed_with c = key p /\ ca p = true /\ trusted roots t p.
Proof. exact trusted_needs_signature_and_ca. Qed.
Print Assumptions C14_trust_needs_name_signature_and_ca.

Theorem C14_broken_link_rejected :
  forall roots t c p rest, anchored roots t c = false -> issued_by c p = false -> valid_from roots t (c :: p :: rest) = false.
Proof. exact broken_link_rejected. Qed.
Print Assumptions C14_broken_link_rejected.

Theorem C14_certificates_after_the_anchor_are_ignored :
  forall roots t pre c extra1 extra2, anchored roots t c = true ->
  valid_from roots t (pre ++ c :: extra1) = valid_from roots t (pre ++ c :: extra2).
Proof. exact certificates_after_the_anchor_are_ignored. Qed.
Print Assumptions C14_certificates_after_the_anchor_are_ignored.

Theorem C14_unknown_root_and_empty_chain_rejected :
  forall roots t chain, validate [] t chain = None /\ validate roots t [] = None.
Proof. exact unknown_root_and_empty_chain. Qed.
Print Assumptions C14_unknown_root_and_empty_chain_rejected.

Theorem C14_no_time_only_drops_time_checks :
  forall roots chain x k, validate roots (Some x) chain = Some k -> validate roots None chain = Some k.
Proof. exact no_time_means_no_expiry_check. Qed.
Print Assumptions C14_no_time_only_drops_time_checks.
