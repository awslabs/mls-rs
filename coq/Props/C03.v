(* C03 - Any modification or forgery of protocol traffic is rejected.

   What can be a theorem here is COVERAGE: every field of a message is an input of the
   signature / MAC / AEAD that guards it, so that (with unforgeable primitives) an accepted
   message is one its sender produced.  Model/Framing.v builds the signed and the MACed byte
   strings of a PublicMessage (AuthenticatedContentTBS / TBM, SignContent) and the AADs of a
   PrivateMessage from the GENERATED type table, and Proofs/FramingProofs.v proves, for every
   value:
    - equal signed bytes => equal protocol version, wire format, FramedContent (group id,
      epoch, sender, authenticated data, content) and, for member senders, equal GroupContext
      (so a message cannot be moved to another epoch, group or tree state);
    - equal MACed bytes => additionally equal signature and confirmation tag;
    - the SignContent wrapper is injective in the content;
    - a PrivateMessage is determined by its content AAD, encrypted sender data and ciphertext;
    - with an unforgeable signature and MAC (hypotheses of the theorem, not axioms) an accepted
      public message carries a content its sender signed for the receiver's own group context.
   The tie to the code: the membership tag of every public message of generated histories is
   recomputed in Coq from the wire bytes (model TBM + Gallina HMAC-SHA-256) and equals the tag
   in the message; the signature verifies (real provider) over the bytes the model says are
   signed.  The search oracle is exhaustive on the implementation: every single-bit flip and
   every truncation of every message kind, field splices, cross-epoch / cross-group replays
   and insider-signed invalid commits are refused, never panic (./check C03).
   Statements only. *)
From Coq Require Import NArith List Bool String.
From MlsV Require Import Codec CodecProofs CodecTypes Sha2 Hkdf Framing FramingProofs Admission AdmissionProofs AdmissionGen.
Import ListNotations.
Local Open Scope N_scope.

Theorem C03_signature_covers_content_and_context : forall v1 v2 w1 w2 fc1 fc2 c1 c2 b,
  vwf T_AuthenticatedContentTBS (tbs_val v1 w1 fc1 c1) = true ->
  vwf T_AuthenticatedContentTBS (tbs_val v2 w2 fc2 c2) = true ->
  encode T_AuthenticatedContentTBS (tbs_val v1 w1 fc1 c1) = Some b ->
  encode T_AuthenticatedContentTBS (tbs_val v2 w2 fc2 c2) = Some b ->
  v1 = v2 /\ w1 = w2 /\ fc1 = fc2 /\ (member_like fc1 = true -> c1 = c2).
Proof. exact tbs_injective. Qed.

Theorem C03_membership_tag_covers_signature_and_confirmation : forall v1 v2 w1 w2 fc1 fc2 c1 c2 a1 a2 b,
  vwf T_AuthenticatedContentTBM (tbm_val v1 w1 fc1 c1 a1) = true ->
  vwf T_AuthenticatedContentTBM (tbm_val v2 w2 fc2 c2 a2) = true ->
  encode T_AuthenticatedContentTBM (tbm_val v1 w1 fc1 c1 a1) = Some b ->
  encode T_AuthenticatedContentTBM (tbm_val v2 w2 fc2 c2 a2) = Some b ->
  v1 = v2 /\ w1 = w2 /\ fc1 = fc2 /\ a1 = a2 /\ (member_like fc1 = true -> c1 = c2).
Proof. exact tbm_injective. Qed.

Theorem C03_sign_content_injective : forall l c1 c2 b,
  sign_input l c1 = Some b -> sign_input l c2 = Some b -> c1 = c2.
Proof. exact sign_input_injective. Qed.

Theorem C03_private_message_fully_authenticated : forall m1 m2 b1 b2 aad,
  encode T_PrivateMessage m1 = Some b1 -> encode T_PrivateMessage m2 = Some b2 ->
  encode T_PrivateContentAAD (prm_aad m1) = Some aad -> encode T_PrivateContentAAD (prm_aad m2) = Some aad ->
  prm_esd m1 = prm_esd m2 -> prm_ct m1 = prm_ct m2 -> m1 = m2.
Proof. exact private_message_covered. Qed.

Theorem C03_accepted_public_message_is_authentic :
  forall (key : Type) (verify : key -> list N -> list N -> bool) (signed : key -> list N -> Prop),
  (forall pk m s, verify pk m s = true -> signed pk m) ->
  forall (H : hash_alg) (maced : list N -> list N -> Prop),
  (forall k m t, t = hmac H k m -> maced k m) ->
  forall pk mkey ver ctx pm,
  accept_public key verify H pk mkey ver ctx pm = true ->
  exists tbs tbm,
    encode T_AuthenticatedContentTBS (tbs_val ver 1 (pm_content pm) ctx) = Some tbs
    /\ (exists si, sign_input "FramedContentTBS" tbs = Some si /\ signed pk si)
    /\ encode T_AuthenticatedContentTBM (tbm_val ver 1 (pm_content pm) ctx (pm_auth pm)) = Some tbm
    /\ maced mkey tbm.
Proof. exact accepted_public_is_authentic. Qed.

Theorem C03_accepted_content_is_the_senders :
  forall (key : Type) (verify : key -> list N -> list N -> bool) (signed : key -> list N -> Prop),
  (forall pk m s, verify pk m s = true -> signed pk m) ->
  forall (H : hash_alg) (maced : list N -> list N -> Prop),
  (forall k m t, t = hmac H k m -> maced k m) ->
  forall pk mkey ver ctx pm ver' w' fc' ctx' tbs' si',
  accept_public key verify H pk mkey ver ctx pm = true ->
  (forall si, signed pk si -> si = si') ->
  encode T_AuthenticatedContentTBS (tbs_val ver' w' fc' ctx') = Some tbs' ->
  sign_input "FramedContentTBS" tbs' = Some si' ->
  vwf T_AuthenticatedContentTBS (tbs_val ver 1 (pm_content pm) ctx) = true ->
  vwf T_AuthenticatedContentTBS (tbs_val ver' w' fc' ctx') = true ->
  ver = ver' /\ w' = 1 /\ pm_content pm = fc' /\ (member_like fc' = true -> ctx = ctx').
Proof. exact accepted_content_is_senders. Qed.

Print Assumptions C03_signature_covers_content_and_context.
Print Assumptions C03_membership_tag_covers_signature_and_confirmation.
Print Assumptions C03_sign_content_injective.
Print Assumptions C03_private_message_fully_authenticated.
Print Assumptions C03_accepted_public_message_is_authentic.
Print Assumptions C03_accepted_content_is_the_senders.

(* the admission rule (version, group id, epoch per content type, epoch window, no unencrypted
   application data) IS what the translator reads in MessageProcessor::check_metadata, shared by
   members and observers (regenerated on every run) *)
Theorem C03_translated_check_metadata_is_the_model : forall v gid epoch ct cipher,
  gen_check_metadata v gid epoch ct cipher = check_metadata v gid epoch ct cipher.
Proof. exact gen_check_metadata_is_model. Qed.
Print Assumptions C03_translated_check_metadata_is_the_model.
