(* C02 - Only current members can follow the group; secrets go only to entitled keys.

   Tree side (Model/Tree.v, Model/Kem.v): `wf3` - every leaf listed as unmerged at a parent is
   a non-blank leaf below that parent - holds in the one-member tree and is preserved by every
   commit (removes, updates, adds, trim, path update), for every tree and every operation list.
   Under it, for EVERY tree, committer and set of added leaves, each HPKE recipient of a fresh
   path secret (encap / encrypt_copath_node_resolution) is a non-blank node of the new tree
   inside the resolution of a copath node of the committer, is never a leaf added by the same
   commit, and a leaf blanked by the commit (a removed member) receives nothing.
   Admission side (Model/Admission.v, from check_metadata + the epoch lookup): a party whose
   newest epoch is e - a removed member stops at the epoch before its removal - accepts no
   commit, proposal or application message of any later epoch, nor anything of another group.
   The tie to the code is the correspondence run of ./check C02 (recorded HPKE recipients of
   every commit against `encap_recipients` evaluated in Coq; removed and never-added parties fed
   all later traffic).  Statements only. *)
From Coq Require Import NArith List.
From MlsV Require Import Res TreeMathGen Tree TreeProofs TreeWF Kem KemProofs Admission AdmissionProofs KemGen KemGenProofs AdmissionGen Priv PrivProofs CommitStep.
Import ListNotations.
Local Open Scope N_scope.

Theorem C02_unmerged_invariant_initially : forall id, wf3 [Some (Leaf id)].
Proof. exact wf3_single. Qed.

Theorem C02_unmerged_invariant_preserved : forall t removes updates adds path t' added,
  wf3 t -> tlen t + 2 * N.of_nat (length adds) < 2 ^ 25 ->
  apply_commit t removes updates adds path = TOk (t', added) -> wf3 t'.
Proof. exact wf3_apply_commit. Qed.

Theorem C02_resolution_has_no_blank_node : forall t c r,
  wf3 t -> resolution_of t c = Ok r -> forall x, In x r -> get t x <> None.
Proof. exact resolution_nonblank. Qed.

Theorem C02_path_secret_recipients : forall t sender excl rs,
  wf3 t -> encap_recipients t sender excl = Ok rs ->
  forall p xs x, In (p, xs) rs -> In x xs ->
    get t x <> None /\ (forall l, In l excl -> x <> 2 * l)
    /\ exists copath c r, copath_nodes t sender = Ok copath /\ In c copath /\ resolution_of t c = Ok r /\ In x r.
Proof. exact seal_recipients_ok. Qed.

Theorem C02_removed_leaf_receives_nothing : forall t sender excl rs l,
  wf3 t -> get t (2 * l) = None -> encap_recipients t sender excl = Ok rs ->
  forall p xs, In (p, xs) rs -> ~ In (2 * l) xs.
Proof. exact removed_leaf_gets_nothing. Qed.

Theorem C02_removed_leaf_is_blank : forall t l t1 t2,
  blank_leaf t l = TOk t1 -> blank_direct_path t1 l = TOk t2 -> get t2 (2 * l) = None.
Proof. exact removed_leaf_blank. Qed.

Theorem C02_later_epochs_rejected : forall v gid epoch ct cipher,
  Forall (fun s => s < av_epoch v) (av_stored v) -> av_epoch v < epoch ->
  admission v gid epoch ct cipher <> AOk.
Proof. exact later_epoch_rejected. Qed.

Theorem C02_other_groups_rejected : forall v gid epoch ct cipher,
  gid <> av_gid v -> admission v gid epoch ct cipher <> AOk.
Proof. exact other_group_rejected. Qed.

(* non-vacuity: B (leaf 1) removed from A B C D with parents set; A commits with a path.
   The only recipients: C's subtree root (node 5) ... leaf 1 gets nothing *)
Example C02_ex :
  let t := [Some (Leaf 1); None; None; None; Some (Leaf 3); Some (Par []); Some (Leaf 4)] in
  wf3_check t = true /\ encap_recipients t 0 [] = Ok [(3, [5])].
Proof. vm_compute. split; reflexivity. Qed.

(* over the commit as a whole (proposals, then the path): a member removed by the commit holds private keys
   only for its own leaf and for nodes of its direct path (PrivOK); none of those nodes is among the nodes
   the new path secrets are sealed to - its path was blanked and is never re-created by the same commit,
   its leaf is blank or, if the slot was given to somebody else by the same commit, excluded *)
Theorem C02_removed_member_holds_no_key_of_a_recipient_node : forall t removes updates adds t1 added l sndr id rs,
  shape_ok t -> tlen t + 2 * N.of_nat (length adds) < 2 ^ 25 ->
  batch_edit t removes updates adds = TOk (t1, added) -> In l removes ->
  let t1' := set t1 (2 * sndr) (Some (Leaf id)) in
  wf3 t1' -> encap_recipients t1' sndr added = Ok rs ->
  forall p xs x, In (p, xs) rs -> In x xs ->
    (forall k, (1 <= k)%nat -> x <> lvl_node (N.of_nat k) l) /\ (get t1' (2 * l) = None \/ In l added -> x <> 2 * l).
Proof. exact removed_member_holds_no_key_of_a_recipient_node. Qed.

Print Assumptions C02_unmerged_invariant_initially.
Print Assumptions C02_unmerged_invariant_preserved.
Print Assumptions C02_resolution_has_no_blank_node.
Print Assumptions C02_path_secret_recipients.
Print Assumptions C02_removed_leaf_receives_nothing.
Print Assumptions C02_removed_leaf_is_blank.
Print Assumptions C02_later_epochs_rejected.
Print Assumptions C02_other_groups_rejected.

(* the sender-side filter of the model IS what the translator reads in
   tree_kem/kem.rs encrypt_copath_node_resolution (regenerated on every run) *)
Theorem C02_translated_sender_filter_is_the_model :
  forall excl idx, gen_seal_keep (map (fun l => 2 * l) excl) idx = not_excluded excl idx.
Proof. exact gen_seal_keep_is_model. Qed.
Print Assumptions C02_translated_sender_filter_is_the_model.

(* the admission rule (version, group id, epoch per content type, epoch window, no unencrypted
   application data) IS what the translator reads in MessageProcessor::check_metadata, shared by
   members and observers (regenerated on every run) *)
Theorem C02_translated_check_metadata_is_the_model : forall v gid epoch ct cipher,
  gen_check_metadata v gid epoch ct cipher = check_metadata v gid epoch ct cipher.
Proof. exact gen_check_metadata_is_model. Qed.
Print Assumptions C02_translated_check_metadata_is_the_model.
Print Assumptions C02_removed_member_holds_no_key_of_a_recipient_node.
