(* C05 - Message keys are single-use: no nonce reuse, no replay, reordering tolerated.

   Model/Ratchet.v is SecretKeyRatchet (generation counter, stored history, the 1024 window
   with u32 arithmetic) and the per-(leaf, content kind) ratchets of an epoch.  The key
   material of (leaf, kind, generation) is the RFC 9420 value (C13, ratchet_key_ok), which
   distinct triples map to distinct keys under the collision-freeness idealisation of the
   KDF - so "no generation triple is handed out twice" is "no (key, nonce) pair is used
   twice", whatever the reuse guard.  All statements are for every sequence of requests /
   sends, of any length.  Statements only. *)
From Coq Require Import NArith List.
From MlsV Require Import Res Ratchet RatchetProofs RatchetGen.
Import ListNotations.
Local Open Scope N_scope.

(* a receiver never accepts the same generation twice: a replayed ciphertext is refused *)
Theorem C05_receive_once : forall gs os s',
  run_recv rinit gs = Ok (os, s') -> NoDup (oks os).
Proof. exact receive_once. Qed.

(* a refused request (replay, too far ahead) leaves the ratchet exactly as it was *)
Theorem C05_reject_keeps_state : forall s g e s' D,
  inv D s -> get_message_key s g = Ok (RErr e, s') -> s' = s.
Proof. exact reject_keeps_state. Qed.

(* in-window requests for generations not yet delivered are accepted, in any order *)
Theorem C05_reorder_accepted : forall D s g,
  inv D s -> ~ In g D -> g <= gen s + 1024 -> g + 1 < 2 ^ 32 -> gen s + 1024 < 2 ^ 32 ->
  exists s', get_message_key s g = Ok (ROk g, s').
Proof. exact reorder_step. Qed.

(* the window is exactly 1024 *)
Theorem C05_window_exact : forall s g, gen s + 1025 < 2 ^ 32 -> gen s <= g ->
  (g <= gen s + 1024 -> exists s', get_message_key s g = Ok (ROk g, s'))
  /\ (gen s + 1024 < g -> get_message_key s g = Ok (RErr InvalidFutureGeneration, s)).
Proof. exact window_exact. Qed.

(* senders: over any interleaving of sends by any members, application and handshake, no
   (leaf, kind, generation) - hence no key - is handed out twice *)
Theorem C05_senders_never_share_a_key : forall sends os m',
  run_sends [] sends = Ok (os, m') -> NoDup os.
Proof. exact senders_never_share_a_key. Qed.

Theorem C05_sender_generations_distinct : forall n os s',
  run_send rinit n = Ok (os, s') -> NoDup (oks os).
Proof. exact sender_generations_distinct. Qed.

Theorem C05_invariant_initially : inv [] rinit.
Proof. exact inv_init. Qed.

(* non-vacuity *)
Example C05_ex : run_requests [] [((1, false), 3); ((1, false), 1); ((1, false), 1); ((1, false), 1028); ((1, false), 1029); ((1, true), 0)]
  = [0; 0; 1; 0; 0; 0] /\ run_requests [] [((0, false), 1025)] = [2] /\ run_requests [] [((0, false), 1024)] = [0].
Proof. vm_compute. repeat split. Qed.

Print Assumptions C05_receive_once.
Print Assumptions C05_reject_keeps_state.
Print Assumptions C05_reorder_accepted.
Print Assumptions C05_window_exact.
Print Assumptions C05_senders_never_share_a_key.
Print Assumptions C05_sender_generations_distinct.
Print Assumptions C05_invariant_initially.

(* the state machine of these theorems IS what the translator reads in secret_tree.rs
   (get_message_key, out_of_order build; regenerated on every run) *)
Theorem C05_translated_ratchet_is_the_model : forall s g,
  gen_get_message_key s g = get_message_key s g.
Proof. exact gen_get_message_key_is_model. Qed.
Print Assumptions C05_translated_ratchet_is_the_model.

Theorem C05_translated_window_is_the_model : gen_window = MAX_RATCHET_BACK_HISTORY.
Proof. exact gen_window_is_model. Qed.
Print Assumptions C05_translated_window_is_the_model.
