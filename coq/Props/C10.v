(* C10 - Committer-side and receiver-side proposal validation agree.

   Model/Filter.v: the rules of apply_proposals_from_member (sender/type table, update or
   removal of the committer, PSK type / nonce / duplicates / presence, group-context-extension
   validity and uniqueness, re-init version and exclusivity, external init, custom proposals,
   new-node validation) and the three conflict passes of batch_edit (removes last-to-first,
   updates, adds), each with the two strategies of the code: IgnoreByRef (committer: drop an
   offending by-reference proposal, fail on an offending by-value one) and IgnoreNone
   (receiver: fail on any offender).  Every stage is shown to be `lawful`: its result is a
   sublist that passes the stage, passing is closed under taking sublists (all but the last
   stage), a passing list is returned unchanged under both strategies.  From these laws, for
   EVERY context and EVERY list of proposals:
     - whatever the committer's filter keeps is accepted unchanged by a receiver
       (no commit that the library lets a member build is refused for a rule violation);
     - a receiver never drops a proposal: it applies the whole list or fails;
     - what the committer drops came in by reference.
   The tie is ./check C10: random multisets of valid and invalid proposals by reference and by
   value, every committer; applied / unused / failure of the library against this model
   evaluated in Coq, and every other member accepts the commit and reports the same lists.
   Statements only. *)
From Coq Require Import NArith List Bool.
From MlsV Require Import Filter FilterCases FilterProofs PathReqGen PathReqProofs ReinitGen.
Import ListNotations.
Local Open Scope N_scope.

Theorem C10_committer_and_receiver_agree : forall g l k,
  pipeline g IgnoreByRef l = Some k -> pipeline g IgnoreNone k = Some k /\ sub k l.
Proof. exact committer_and_receiver_agree. Qed.

Theorem C10_receiver_applies_all_or_nothing : forall g l k, pipeline g IgnoreNone l = Some k -> k = l.
Proof. exact receiver_applies_all_or_nothing. Qed.

Theorem C10_only_by_reference_proposals_are_dropped : forall l l',
  retain IgnoreByRef l = Some l' -> forall p ok, In (p, ok) l -> ~ In p l' -> p_by_ref p = true.
Proof. exact retain_drops_by_ref. Qed.

Theorem C10_every_stage_is_lawful : forall g, Forall lawful (stages g) /\ lawful_last (st_adds g).
Proof. exact all_stages_lawful. Qed.

(* path_update_required as read by the translator from proposal_filter.rs (regenerated on every
   run) is the model's rule: an update path is required iff the list is empty or holds an
   Update, Remove, ExternalInit or GroupContextExtensions proposal, or a custom proposal that the
   application's rules flag *)
Theorem C10_translated_path_rule_is_the_model : forall cust l,
  gen_path_required (bundle_of cust l) = cust || needs_path l.
Proof. exact gen_path_required_is_model. Qed.

(* non-vacuity: committer 0; an update of leaf 2 twice, a removal of the committer, a removal of
   leaf 1 by reference and an add by value: the committer keeps the first update, the removal of
   leaf 1 and the add; a receiver accepts exactly that list *)
Example C10_ex :
  let g := {| committer := 0; leaves := [(0, 10); (1, 11); (2, 12)] |} in
  let l := [mk 1 (BUpdate true) (SMember 2) true; mk 2 (BUpdate true) (SMember 2) true;
            mk 3 (BRemove 0) (SMember 1) true; mk 4 (BRemove 1) (SMember 2) true; mk 5 (BAdd 13 true) (SMember 0) false] in
  map p_tag (match pipeline g IgnoreByRef l with Some k => k | None => [] end) = [1; 4; 5]
  /\ pipeline g IgnoreNone l = None.
Proof. vm_compute. split; reflexivity. Qed.

(* "a re-init travels alone", TRANSLATED from proposal_filter/bundle.rs (ProposalBundle::length: the sum over
   every kind of proposal) and filtering.rs (filter_out_reinit_if_other_proposals: the decision on the
   counts) on every run: the sum counts every proposal of the list exactly once, and the decision is the
   re-init stage of the filter model, for both strategies *)
Theorem C10_translated_bundle_length_counts_every_proposal : forall l, gen_bundle_length (counts_of l) = length l.
Proof. exact gen_bundle_length_counts_every_proposal. Qed.

Theorem C10_translated_reinit_rule_is_the_model : forall st l,
  stage_reinit st l =
  apply_reinit_verdict
    (gen_reinit_rule (match st with IgnoreByRef => true | IgnoreNone => false end)
                     (existsb (fun p => negb (p_by_ref p)) (filter is_reinit l))
                     (gen_bundle_length (counts_of l)) (n_reinit (counts_of l))) l.
Proof. exact gen_reinit_rule_is_model. Qed.

Print Assumptions C10_committer_and_receiver_agree.
Print Assumptions C10_receiver_applies_all_or_nothing.
Print Assumptions C10_only_by_reference_proposals_are_dropped.
Print Assumptions C10_every_stage_is_lawful.
Print Assumptions C10_translated_path_rule_is_the_model.
Print Assumptions C10_translated_bundle_length_counts_every_proposal.
Print Assumptions C10_translated_reinit_rule_is_the_model.
