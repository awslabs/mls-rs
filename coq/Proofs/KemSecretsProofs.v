(* Path-secret chains (Model/KemSecrets.v): whoever enters the committer's chain at a non-filtered position
   with that position's secret reproduces the rest and ends in the commit secret; secrets sit exactly at the
   non-filtered positions. *)
From Coq Require Import PeanoNat List.
From MlsV Require Import KemSecrets.
Import ListNotations.

Section Chains.
  Variable sec : Type.
  Variable derive : sec -> sec.

  Lemma committer_chain_cons f flt cur :
    committer_chain sec derive (f :: flt) cur =
    ((if f then None else Some cur) :: fst (committer_chain sec derive flt (if f then cur else derive cur)),
     snd (committer_chain sec derive flt (if f then cur else derive cur))).
  Proof. destruct f; cbn [committer_chain]; destruct (committer_chain sec derive flt _); reflexivity. Qed.

  (* whoever starts at a non-filtered position with the committer's secret of that position
     reproduces the rest of the committer's chain and ends in the same commit secret *)
  Theorem receiver_reaches_commit_secret : forall flt r i s,
    nth i flt true = false ->
    secret_at sec (fst (committer_chain sec derive flt r)) i = Some s ->
    receiver_chain sec derive (skipn i flt) s =
      (skipn i (fst (committer_chain sec derive flt r)), snd (committer_chain sec derive flt r)).
  Proof.
    induction flt as [|f rest IH]; intros r i s Hf Hs.
    - destruct i; discriminate.
    - rewrite committer_chain_cons in *. cbn [fst snd] in *. destruct i as [|i]; cbn [nth skipn secret_at] in *.
      + subst f. injection Hs as <-. apply committer_chain_cons.
      + exact (IH _ i s Hf Hs).
  Qed.

  (* every non-filtered position of the committer's path carries a secret, every filtered one none *)
  Theorem committer_chain_shape : forall flt r i,
    (i < length flt)%nat ->
    (nth i flt true = false <-> exists s, secret_at sec (fst (committer_chain sec derive flt r)) i = Some s).
  Proof.
    induction flt as [|f rest IH]; intros r i L; [inversion L|].
    rewrite committer_chain_cons. cbn [fst]. destruct i as [|i]; cbn [nth secret_at].
    - destruct f; split; try discriminate; [intros [s Hs]; discriminate|intros _; exists r; reflexivity|reflexivity].
    - apply IH. apply Nat.succ_lt_mono. exact L.
  Qed.

  (* two receivers below different positions agree with each other *)
  Corollary receivers_agree flt r i j si sj :
    nth i flt true = false -> nth j flt true = false ->
    secret_at sec (fst (committer_chain sec derive flt r)) i = Some si ->
    secret_at sec (fst (committer_chain sec derive flt r)) j = Some sj ->
    snd (receiver_chain sec derive (skipn i flt) si) = snd (receiver_chain sec derive (skipn j flt) sj).
  Proof.
    intros Fi Fj Si Sj. rewrite (receiver_reaches_commit_secret flt r i si Fi Si), (receiver_reaches_commit_secret flt r j sj Fj Sj). reflexivity.
  Qed.
End Chains.
