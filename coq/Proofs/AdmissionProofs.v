(* C02 / C03 / C16: which messages check_metadata and the epoch lookup admit (Model/Admission.v); the
   observer's window arithmetic (plain subtraction overflows, the saturating one does not); the translated
   check_metadata (Gen/AdmissionGen.v) is the model. *)
From Coq Require Import NArith List Bool Lia.
From MlsV Require Import Admission AdmissionGen.
Local Open Scope N_scope.

Theorem admitted_iff v gid epoch ct cipher :
  admission v gid epoch ct cipher = AOk <->
  av_version_ok v = true /\ gid = av_gid v /\
  match ct with
  | CtApplication => cipher = true /\ has_epoch v epoch = true
                     /\ match av_min v with Some m => m <= epoch | None => True end
  | _ => epoch = av_epoch v
  end.
Proof.
  unfold admission, check_metadata. split.
  - destruct (av_version_ok v); [|discriminate]. destruct (N.eqb_spec gid (av_gid v)); [|discriminate].
    cbn [negb]. intro A. split; [reflexivity|]. split; [assumption|]. destruct ct.
    2, 3: destruct (N.eqb_spec (av_epoch v) epoch); [auto|discriminate].
    destruct cipher; [destruct (has_epoch v epoch)|]; (destruct (av_min v) as [m|]; [destruct (N.ltb_spec epoch m)|]);
      try discriminate; auto.
  - intros (-> & -> & H). rewrite N.eqb_refl. cbn [negb]. destruct ct.
    2, 3: subst epoch; unfold has_epoch; rewrite !N.eqb_refl; destruct cipher; reflexivity.
    destruct H as (-> & -> & Hm). destruct (av_min v) as [m|]; [destruct (N.ltb_spec epoch m); [lia|]|]; reflexivity.
Qed.

(* a party whose newest epoch is e (current e, stored epochs all below e) accepts nothing of a later epoch *)
Theorem later_epoch_rejected v gid epoch ct cipher :
  Forall (fun s => s < av_epoch v) (av_stored v) -> av_epoch v < epoch ->
  admission v gid epoch ct cipher <> AOk.
Proof.
  intros F L A. apply admitted_iff in A. destruct A as (_ & _ & A).
  destruct ct; [destruct A as (_ & He & _)|lia|lia].
  unfold has_epoch in He. apply orb_true_iff in He. destruct He as [He|He]; [apply N.eqb_eq in He; lia|].
  apply existsb_exists in He. destruct He as (s & Is & Es). apply N.eqb_eq in Es. subst s.
  rewrite Forall_forall in F. specialize (F _ Is). lia.
Qed.

Theorem other_group_rejected v gid epoch ct cipher : gid <> av_gid v -> admission v gid epoch ct cipher <> AOk.
Proof. intros Ne A. apply admitted_iff in A. apply Ne, A. Qed.

(* handshake messages are admitted in exactly one epoch: the current one *)
Theorem handshake_only_current v gid epoch ct cipher :
  ct <> CtApplication -> admission v gid epoch ct cipher = AOk -> epoch = av_epoch v /\ gid = av_gid v.
Proof.
  intros Nc A. apply admitted_iff in A. destruct A as (_ & Eg & A).
  destruct ct; [contradiction| |]; split; assumption.
Qed.

(* application data: accepted exactly for the encrypted messages of an epoch whose secrets are held and inside the window *)
Theorem application_admitted_iff v gid epoch cipher :
  admission v gid epoch CtApplication cipher = AOk <->
  av_version_ok v = true /\ gid = av_gid v /\ cipher = true /\ has_epoch v epoch = true
  /\ match av_min v with Some m => m <= epoch | None => True end.
Proof. exact (admitted_iff v gid epoch CtApplication cipher). Qed.

(* the observer's window: the subtraction as written overflows exactly when jitter > epoch;
   the saturating form never does and agrees with it everywhere else *)
Theorem min_epoch_overflow epoch jitter : min_epoch_checked epoch jitter = None <-> epoch < jitter.
Proof. unfold min_epoch_checked. destruct (N.ltb_spec epoch jitter); split; intro; try discriminate; try lia; reflexivity. Qed.

Theorem min_epoch_saturating_ok epoch jitter :
  (jitter <= epoch -> min_epoch_checked epoch jitter = Some (min_epoch_saturating epoch jitter))
  /\ (epoch < jitter -> min_epoch_saturating epoch jitter = 0).
Proof.
  unfold min_epoch_checked, min_epoch_saturating. split; intro H.
  - destruct (N.ltb_spec epoch jitter); [lia|reflexivity].
  - lia.
Qed.

(* check_metadata as translated from message_processor.rs (Gen/AdmissionGen.v) is the check
   modelled here, for every view and message *)
Theorem gen_check_metadata_is_model v gid epoch ct cipher :
  gen_check_metadata v gid epoch ct cipher = check_metadata v gid epoch ct cipher.
Proof.
  unfold gen_check_metadata, check_metadata.
  destruct (av_version_ok v); cbn [negb]; [|reflexivity].
  destruct (gid =? av_gid v); cbn [negb]; [|reflexivity].
  rewrite (N.eqb_sym epoch (av_epoch v)).
  destruct ct; cbn [ct_is orb andb].
  1: destruct (av_min v) as [m|]; [destruct (epoch <? m); [reflexivity|]|]; destruct cipher; reflexivity.
  all: destruct (av_epoch v =? epoch); cbn [negb andb]; [destruct cipher; reflexivity|reflexivity].
Qed.
