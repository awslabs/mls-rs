(* Parent-hash validity (RFC 9420 7.9) as an invariant of the tree operations.

   A tree is the tree model of Model/Tree.v (structure, unmerged lists) plus a decoration
   d : node index -> (public key, parent hash) for its non-blank nodes.  PHF is the parent-hash
   function, abstract: validity is an equation between a stored parent hash and PHF of (key of
   the parent, parent hash of the parent, content of the sibling subtree with the parent's unmerged
   leaves taken out), so it is preserved whenever both sides are.  Proved: removes, updates, adds
   (with their unmerged-leaf bookkeeping), trim and the update path keep every non-blank parent
   parent-hash valid. *)
From Coq Require Import NArith Arith List Bool Lia.
From MlsV Require Import Res TreeMathProofs Tree TreeProofs TreeWF Kem Priv PrivProofs TreeWF5 PrivComplete.
Import ListNotations.
Local Open Scope N_scope.

Lemma insert_sorted_others x l l' : insert_sorted x l = Some l' ->
  filter (fun y => negb (y =? x)) l' = filter (fun y => negb (y =? x)) l /\ (forall y, y <> x -> mem y l' = mem y l).
Proof.
  assert (Mc : forall y h r, mem y (h :: r) = (y =? h) || mem y r) by reflexivity.
  assert (Head : forall r, filter (fun y => negb (y =? x)) (x :: r) = filter (fun y => negb (y =? x)) r /\
                           (forall y, y <> x -> mem y (x :: r) = mem y r)).
  { intro r. cbn [filter]. rewrite N.eqb_refl. split; [reflexivity|]. intros y Ny. rewrite Mc. apply N.eqb_neq in Ny. rewrite Ny. reflexivity. }
  revert l'. induction l as [|h r IH]; intros l'; cbn [insert_sorted]; [intro E; injection E as <-; apply Head|].
  destruct (N.eqb_spec x h) as [->|Nh]; [discriminate|]. destruct (x <? h); [intro E; injection E as <-; apply Head|].
  destruct (insert_sorted x r) as [r'|]; [|discriminate]. intro E. injection E as <-. destruct (IH r' eq_refl) as (F & O).
  cbn [filter]. rewrite F. split; [reflexivity|]. intros y Ny. rewrite !Mc, (O y Ny). reflexivity.
Qed.

Lemma update_unmerged_kind path : forall t leaf t', update_unmerged t leaf path = TOk t' -> forall n,
  match get t n with
  | Some (Par um) => exists um', get t' n = Some (Par um') /\
      filter (fun y => negb (y =? leaf)) um' = filter (fun y => negb (y =? leaf)) um /\
      (forall y, y <> leaf -> mem y um' = mem y um)
  | o => get t' n = o
  end.
Proof.
  induction path as [|p r IH]; intros t leaf t' U n; cbn [update_unmerged] in U.
  - injection U as <-. destruct (get t n) as [[x|um]|]; try reflexivity. exists um. repeat split.
  - destruct (get t p) as [[x|um0]|] eqn:Gp; try exact (IH _ _ _ U n).
    destruct (insert_sorted leaf um0) as [um0'|] eqn:Is; [|discriminate].
    specialize (IH _ _ _ U n). destruct (N.eq_dec n p) as [->|Ne]; [|rewrite get_set_other in IH by congruence; exact IH].
    rewrite get_set_same in IH by (eapply get_some_lt; exact Gp). rewrite Gp.
    destruct IH as (um' & G' & F & O). destruct (insert_sorted_others _ _ _ Is) as (F0 & O0).
    exists um'. split; [exact G'|]. split; [rewrite F; exact F0|]. intros y Ny. rewrite (O y Ny). exact (O0 y Ny).
Qed.

(* what an Add does to the tree, abstractly *)
Definition AddRel (t t2 : tree) (idx : N) : Prop :=
  get t (2 * idx) = None /\ (exists id, get t2 (2 * idx) = Some (Leaf id)) /\
  (forall n, n <> 2 * idx ->
     (forall um, get t n = Some (Par um) -> exists um', get t2 n = Some (Par um') /\
         filter (fun y => negb (y =? idx)) um' = filter (fun y => negb (y =? idx)) um /\
         (forall y, y <> idx -> mem y um' = mem y um) /\ (ancestor n idx -> mem idx um' = true)) /\
     (forall x, get t n = Some (Leaf x) -> get t2 n = Some (Leaf x)) /\
     (get t n = None -> get t2 n = None)) /\
  (forall n, ~ ancestor n idx -> n <> 2 * idx -> get t2 n = get t n).

Lemma add_leaf_rel t id start t2 idx :
  tlen t + 2 < 2 ^ 25 -> 2 * start <= tlen t + 1 -> add_leaf t id start = TOk (t2, idx) -> AddRel t t2 idx.
Proof.
  intros Sz Ls A. apply add_leaf_ok in A. destruct A as (Ei & Lt & path & P & U).
  set (t1 := insert_leaf t idx (Leaf id)) in *.
  pose proof (insert_leaf_length t idx (Leaf id)) as Ll. fold t1 in Ll.
  assert (Sm1 : small t1) by (unfold small; lia).
  pose proof (path_nodes_ancestors t1 idx path Sm1 ltac:(lia) P) as Anc. rewrite Forall_forall in Anc.
  assert (Off : forall n, ~ ancestor n idx -> get t2 n = get t1 n)
    by (intros n Na; apply (proj1 (update_unmerged_get _ _ _ _ U n)); intro I; exact (Na (Anc n I))).
  split; [rewrite Ei; apply next_empty_leaf_blank; exact Ls|]. split; [|split].
  - exists id. rewrite Off by (intro An; exact (ancestor_not_leaf _ _ _ An eq_refl)).
    exact (insert_leaf_at t idx (Leaf id) Lt).
  - intros n Nn. pose proof (update_unmerged_kind _ _ _ _ U n) as K. unfold t1 in K. rewrite insert_leaf_get in K by exact Nn.
    split; [|split; [intros x G|intro G]; rewrite G in K; exact K].
    intros um G. rewrite G in K. destruct K as (um' & G' & F & O). exists um'. split; [exact G'|]. split; [exact F|]. split; [exact O|].
    intro An. apply existsb_eqb_in, (update_unmerged_marks _ _ _ _ U n um'); [|exact G'].
    apply (path_nodes_complete t1 idx path n Sm1 Lt P An). pose proof (get_some_lt _ _ _ G). lia.
  - intros n Na Nn. rewrite (Off n Na). apply insert_leaf_get. exact Nn.
Qed.

(* what a non-blank node stores beside the structure: (public key, parent hash) *)
Definition deco := N -> (N * N)%type.

(* what the tree hash of a subtree depends on, with the leaves in [strip] taken out: a leaf gives (id, key, parent
   hash), a parent (key, parent hash, unmerged leaves without the stripped ones); None for a blank node *)
Inductive cterm := CLeaf (j : N) (nd : option (N * N * N)) | CPar (nd : option (N * N * list N)) (l r : cterm).

Fixpoint content (t : tree) (d : deco) (strip : list N) (k : nat) (j : N) : cterm :=
  let x := node (N.of_nat k) j in
  match k with
  | O => match get t x with
         | Some (Leaf id) => if mem j strip then CLeaf j None else CLeaf j (Some (id, fst (d x), snd (d x)))
         | _ => CLeaf j None
         end
  | S k' => CPar (match get t x with
                  | Some (Par um) => Some (fst (d x), snd (d x), filter (fun l => negb (mem l strip)) um)
                  | _ => None
                  end)
                 (content t d strip k' (2 * j)) (content t d strip k' (2 * j + 1))
  end.

(* the first non-blank nodes below (k, j), going down through blank nodes only *)
Fixpoint reach (t : tree) (k : nat) (j : N) (x : N) : Prop :=
  let n := node (N.of_nat k) j in
  (get t n <> None /\ x = n) \/
  (get t n = None /\ match k with O => False | S k' => reach t k' (2 * j) x \/ reach t k' (2 * j + 1) x end).

Section PH.
  Variable PHF : N -> N -> cterm -> N.

  (* the parent at level k+1, index j *)
  Definition valid_at (t : tree) (d : deco) (k : nat) (j : N) : Prop :=
    let p := node (N.of_nat (S k)) j in
    match get t p with
    | Some (Par um) =>
        (exists x, reach t k (2 * j) x /\ snd (d x) = PHF (fst (d p)) (snd (d p)) (content t d um k (2 * j + 1))) \/
        (exists x, reach t k (2 * j + 1) x /\ snd (d x) = PHF (fst (d p)) (snd (d p)) (content t d um k (2 * j)))
    | _ => True
    end.
  Definition PHValid (t : tree) (d : deco) : Prop := forall k j, valid_at t d k j.

  Fixpoint agree (t t' : tree) (d d' : deco) (k : nat) (j : N) : Prop :=
    let n := node (N.of_nat k) j in
    get t' n = get t n /\ (get t n <> None -> d' n = d n) /\
    match k with O => True | S k' => agree t t' d d' k' (2 * j) /\ agree t t' d d' k' (2 * j + 1) end.

  Lemma content_agree t t' d d' s : forall k j, agree t t' d d' k j -> content t' d' s k j = content t d s k j.
  Proof.
    induction k as [|k IH]; intros j A; cbn [agree content] in *.
    - destruct A as (G & D & _). rewrite G. destruct (get t (node (N.of_nat 0) j)) as [[id|um]|] eqn:E; try reflexivity.
      rewrite D by congruence. reflexivity.
    - destruct A as (G & D & A1 & A2). rewrite (IH _ A1), (IH _ A2), G.
      destruct (get t (node (N.of_nat (S k)) j)) as [[id|um]|] eqn:E; try reflexivity. rewrite D by congruence. reflexivity.
  Qed.

  Lemma reach_agree t t' d d' : forall k j x, agree t t' d d' k j -> reach t k j x -> reach t' k j x /\ d' x = d x.
  Proof.
    induction k as [|k IH]; intros j x A R; cbn [agree reach] in *.
    - destruct A as (G & D & _). destruct R as [[Nb ->]|[_ []]]. split; [left; split; [rewrite G; exact Nb|reflexivity]|apply D; exact Nb].
    - destruct A as (G & D & A1 & A2). destruct R as [[Nb ->]|[Bl [R|R]]].
      + split; [left; split; [rewrite G; exact Nb|reflexivity]|apply D; exact Nb].
      + destruct (IH _ _ A1 R) as [R' E]. split; [right; split; [rewrite G; exact Bl|left; exact R']|exact E].
      + destruct (IH _ _ A2 R) as [R' E]. split; [right; split; [rewrite G; exact Bl|right; exact R']|exact E].
  Qed.

  Lemma valid_frame t t' d d' k j :
    get t' (node (N.of_nat (S k)) j) = get t (node (N.of_nat (S k)) j) ->
    (get t (node (N.of_nat (S k)) j) <> None -> d' (node (N.of_nat (S k)) j) = d (node (N.of_nat (S k)) j)) ->
    agree t t' d d' k (2 * j) -> agree t t' d d' k (2 * j + 1) ->
    valid_at t d k j -> valid_at t' d' k j.
  Proof.
    intros G D A1 A2 V. unfold valid_at in *. rewrite G. destruct (get t (node (N.of_nat (S k)) j)) as [[id|um]|] eqn:E; try exact I.
    rewrite D by congruence. rewrite (content_agree _ _ _ _ um _ _ A1), (content_agree _ _ _ _ um _ _ A2).
    destruct V as [(x & R & H)|(x & R & H)].
    - destruct (reach_agree _ _ _ _ _ _ _ A1 R) as [R' Ex]. left. exists x. split; [exact R'|rewrite Ex; exact H].
    - destruct (reach_agree _ _ _ _ _ _ _ A2 R) as [R' Ex]. right. exists x. split; [exact R'|rewrite Ex; exact H].
  Qed.

  (* operations that replace some leaves and blank all of their ancestors: Remove, Update, and (with the
     path nodes rewritten instead of blanked) the update path *)
  Definition touched (ls : list N) (n : N) : Prop := exists l, In l ls /\ (n = 2 * l \/ ancestor n l).

  Lemma not_touched_iff ls n : ~ touched ls n <-> forall l, In l ls -> n <> 2 * l /\ ~ ancestor n l.
  Proof.
    split.
    - intros Nt l I. split; intro H; apply Nt; exists l; (split; [exact I|]); [left|right]; exact H.
    - intros H (l & I & [E|A]); destruct (H l I); contradiction.
  Qed.

  Lemma touched_cons l ls n : touched (l :: ls) n <-> (n = 2 * l \/ ancestor n l) \/ touched ls n.
  Proof.
    split.
    - intros (x & [<-|I] & H); [left; exact H|right; exists x; split; assumption].
    - intros [H|(x & I & H)]; [exists l; split; [left; reflexivity|exact H]|exists x; split; [right; exact I|exact H]].
  Qed.

  Lemma untouched_cons l ls n : ~ touched (l :: ls) n -> n <> 2 * l /\ ~ ancestor n l /\ ~ touched ls n.
  Proof. intro Nt. repeat split; intro H; apply Nt, touched_cons; auto. Qed.

  Lemma touched_app a b n : touched (a ++ b) n <-> touched a n \/ touched b n.
  Proof.
    split.
    - intros (x & I & H). apply in_app_or in I. destruct I as [I|I]; [left|right]; exists x; split; assumption.
    - intros [(x & I & H)|(x & I & H)]; exists x; (split; [apply in_or_app; auto|exact H]).
  Qed.

  Lemma untouched_app a b n : ~ touched (a ++ b) n -> ~ touched a n /\ ~ touched b n.
  Proof. intro Nt. split; intro H; apply Nt, touched_app; auto. Qed.

  Lemma touched_leaf ls l : touched ls (2 * l) -> In l ls.
  Proof.
    intros (x & I & [E|A]); [assert (x = l) by lia; subst; exact I|].
    exfalso. exact (ancestor_not_leaf _ _ l A eq_refl).
  Qed.

  Lemma untouched_node ls k j : (forall l, In l ls -> l / 2 ^ N.of_nat (S k) <> j) -> ~ touched ls (node (N.of_nat (S k)) j).
  Proof. intros Ne (l & Il & [E|A]); [exact (not_leaf_node _ _ _ E)|exact (Ne l Il (proj1 (ancestor_node _ _ _) A))]. Qed.

  Lemma agree_outside_many t t' d d' ls :
    (forall n, ~ touched ls n -> get t' n = get t n /\ (get t n <> None -> d' n = d n)) ->
    forall k j, (forall l, In l ls -> l / 2 ^ N.of_nat k <> j) -> agree t t' d d' k j.
  Proof.
    intro H. induction k as [|k IH]; intros j Ne; cbn [agree].
    - rewrite node_0. destruct (H (2 * j)) as [G D]; [|split; [exact G|split; [exact D|exact I]]].
      intros (l & Il & [E|A]); [|exact (ancestor_not_leaf _ _ _ A eq_refl)].
      apply (Ne l Il). cbn [N.of_nat]. rewrite N.pow_0_r, N.div_1_r. lia.
    - destruct (H _ (untouched_node ls k j Ne)) as [G D]. split; [exact G|]. split; [exact D|].
      split; apply IH; intros l Il E; apply (Ne l Il), child_of; auto.
  Qed.

  Lemma valid_outside_many t t' d d' ls :
    (forall n, ~ touched ls n -> get t' n = get t n /\ (get t n <> None -> d' n = d n)) ->
    forall k j, (forall l, In l ls -> l / 2 ^ N.of_nat (S k) <> j) -> valid_at t d k j -> valid_at t' d' k j.
  Proof.
    intros H k j Ne. destruct (H _ (untouched_node ls k j Ne)) as [G D].
    apply (valid_frame t t' d d' k j G D); apply (agree_outside_many t t' d d' ls H); intros l Il E; apply (Ne l Il), child_of; auto.
  Qed.

  Theorem ph_blanking_many t t' d d' ls :
    (forall n, ~ touched ls n -> get t' n = get t n /\ (get t n <> None -> d' n = d n)) ->
    (forall l p, In l ls -> ancestor p l -> get t' p = None) ->
    PHValid t d -> PHValid t' d'.
  Proof.
    intros H B V k j. destruct (in_dec N.eq_dec j (map (fun l => l / 2 ^ N.of_nat (S k)) ls)) as [Ij|Nj].
    - apply in_map_iff in Ij. destruct Ij as (l & E & Il).
      unfold valid_at. rewrite (B l _ Il (proj2 (ancestor_node k j l) E)). exact I.
    - apply (valid_outside_many t t' d d' ls H k j); [|apply V].
      intros l Il E. apply Nj. rewrite <- E. exact (in_map (fun l => l / 2 ^ N.of_nat (S k)) ls l Il).
  Qed.

  Corollary ph_same t t' d d' :
    (forall n, get t' n = get t n /\ (get t n <> None -> d' n = d n)) -> PHValid t d -> PHValid t' d'.
  Proof. intro H. apply (ph_blanking_many t t' d d' []); [intros n _; apply H|intros l p []]. Qed.

  Lemma one_leaf (X : N -> Prop) l : (forall n, n <> 2 * l -> ~ ancestor n l -> X n) -> forall n, ~ touched [l] n -> X n.
  Proof. intros H n Nt. destruct (proj1 (not_touched_iff _ _) Nt l (or_introl eq_refl)). apply H; assumption. Qed.

  Lemma agree_outside t t' d d' l :
    (forall n, n <> 2 * l -> ~ ancestor n l -> get t' n = get t n /\ (get t n <> None -> d' n = d n)) ->
    forall k j, l / 2 ^ N.of_nat k <> j -> agree t t' d d' k j.
  Proof. intros H k j Ne. apply (agree_outside_many t t' d d' [l]); [apply one_leaf; exact H|intros l0 [<-|[]]; exact Ne]. Qed.

  Theorem ph_blanking t t' d d' l :
    (forall n, n <> 2 * l -> ~ ancestor n l -> get t' n = get t n /\ (get t n <> None -> d' n = d n)) ->
    (forall p, ancestor p l -> get t' p = None) ->
    PHValid t d -> PHValid t' d'.
  Proof. intros H B. apply (ph_blanking_many t t' d d' [l]); [apply one_leaf; exact H|intros l0 p [<-|[]]; apply B]. Qed.

  Theorem ph_remove t l t1 t2 d :
    small t -> blank_leaf t l = TOk t1 -> blank_direct_path t1 l = TOk t2 -> PHValid t d -> PHValid t2 d.
  Proof.
    intros Sm B1 B2. apply (ph_blanking t t2 d d l).
    - intros n Nn Na. split; [exact (remove_frame t l t1 t2 Sm B1 B2 n Nn Na)|reflexivity].
    - intros p A. exact (remove_blanks t l t1 t2 Sm B1 B2 p (or_intror A)).
  Qed.

  Theorem ph_apply_removes rs : forall t t' d, small t -> apply_removes t rs = TOk t' -> PHValid t d -> PHValid t' d.
  Proof.
    intros t t' d Sm A V. exact (apply_removes_preserves supported (fun t0 => PHValid t0 d)
      (fun t0 l t1 t2 V0 S0 B1 B2 => ph_remove t0 l t1 t2 d S0 B1 B2 V0) rs t t' V Sm A).
  Qed.

  (* all updates of a commit: the leaves are replaced first, then their direct paths are blanked; the new
     decoration is free on the updated leaves *)
  Theorem ph_updates t us ta tc d d' :
    small t -> apply_updates t us = TOk ta -> blank_paths ta (map fst us) = TOk tc ->
    (forall n, (forall l, In l (map fst us) -> n <> 2 * l) -> get t n <> None -> d' n = d n) ->
    PHValid t d -> PHValid tc d'.
  Proof.
    intros Sm A B Hd. pose proof (apply_updates_length _ _ _ A) as La.
    assert (Sma : small ta) by (unfold small; rewrite La; exact Sm).
    assert (Lt : forall l, In l (map fst us) -> 2 * l < tlen ta) by (intros l Il; rewrite La; exact (apply_updates_in_tree _ _ _ A l Il)).
    apply (ph_blanking_many t tc d d' (map fst us)).
    - intros n Nt. pose proof (proj1 (not_touched_iff _ _) Nt) as U. split; [|exact (Hd n (fun l Il => proj1 (U l Il)))].
      rewrite (blank_paths_get _ _ _ Sma (fun l Il => N.lt_le_incl _ _ (Lt l Il)) B n (fun l Il => proj2 (U l Il))).
      exact (apply_updates_get _ _ _ A n (fun l Il => proj1 (U l Il))).
    - exact (blank_paths_blanks _ _ _ Sma Lt B).
  Qed.

  Theorem ph_trim t d : PHValid t d -> PHValid (trim t) d.
  Proof. apply ph_same. intro n. split; [apply get_trim|reflexivity]. Qed.

  Lemma mem_in x l : mem x l = true <-> In x l.
  Proof. apply existsb_eqb_in. Qed.

  Lemma filter_drop_first (f : N -> bool) x l : f x = false -> filter f (filter (fun y => negb (y =? x)) l) = filter f l.
  Proof.
    intro Fx. induction l as [|h r IH]; [reflexivity|]. cbn [filter]. destruct (N.eqb_spec h x) as [->|Ne]; cbn [negb filter].
    - rewrite Fx. exact IH.
    - rewrite IH. reflexivity.
  Qed.

  Section Add.
    Variables (t t2 : tree) (idx : N) (d d2 : deco).
    Hypothesis W : wf3 t.
    Hypothesis R : AddRel t t2 idx.
    Hypothesis Dd : forall n, get t n <> None -> d2 n = d n.

    Lemma content_add : forall k j s s', (forall y, y <> idx -> mem y s' = mem y s) ->
      (mem idx s' = true \/ idx / 2 ^ N.of_nat k <> j) -> content t2 d2 s' k j = content t d s k j.
    Proof.
      destruct R as (Bl & (id & Lf) & Rn & Ro).
      induction k as [|k IH]; intros j s s' Hs Hc; cbn [content].
      - rewrite node_0. destruct (N.eq_dec j idx) as [->|Nj].
        + destruct Hc as [M|Ne]; [|exfalso; apply Ne; cbn [N.of_nat]; rewrite N.pow_0_r, N.div_1_r; reflexivity].
          rewrite Lf, Bl, M. reflexivity.
        + assert (Nn : 2 * j <> 2 * idx) by lia. destruct (Rn _ Nn) as (Rp & Rl & Rb).
          destruct (get t (2 * j)) as [[x|um]|] eqn:G.
          * rewrite (Rl x eq_refl), (Hs j Nj), (Dd (2 * j)) by congruence. reflexivity.
          * destruct (Rp um eq_refl) as (um' & G' & _). rewrite G'. reflexivity.
          * rewrite (Rb eq_refl). reflexivity.
      - pose proof (not_leaf_node k j idx) as Nn. destruct (Rn _ Nn) as (Rp & Rl & Rb).
        rewrite (IH (2 * j) s s' Hs), (IH (2 * j + 1) s s' Hs)
          by (destruct Hc as [M|Ne]; [left; exact M|right; intro E; apply Ne, child_of; auto]).
        f_equal.
        destruct (get t (node (N.of_nat (S k)) j)) as [[x|um]|] eqn:G; [rewrite (Rl x eq_refl); reflexivity| |rewrite (Rb eq_refl); reflexivity].
        assert (Ni : ~ In idx um) by (intro Ii; destruct (W _ _ G idx Ii) as [[x Hx] _]; congruence).
        (* nobody listed at this parent is the new leaf, so s and s' strip the same *)
        assert (Fs : filter (fun l => negb (mem l s')) um = filter (fun l => negb (mem l s)) um)
          by (apply filter_ext_in; intros y Iy; rewrite (Hs y) by (intro; subst; exact (Ni Iy)); reflexivity).
        destruct Hc as [M|Ne].
        + destruct (Rp um eq_refl) as (um' & G' & F & _). rewrite G', (Dd (node (N.of_nat (S k)) j)) by congruence. do 2 f_equal.
          rewrite <- (filter_drop_first (fun l => negb (mem l s')) idx um'), F, filter_drop_first by (rewrite M; reflexivity). exact Fs.
        + rewrite (Ro _ (fun A => Ne (proj1 (ancestor_node _ _ _) A)) Nn), G, (Dd (node (N.of_nat (S k)) j)) by congruence. do 2 f_equal. exact Fs.
    Qed.

    Lemma reach_add : forall k j x, reach t k j x -> reach t2 k j x /\ get t x <> None.
    Proof.
      destruct R as (Bl & (id & Lf) & Rn & Ro).
      assert (NB : forall n, get t n <> None -> get t2 n <> None).
      { intros n Nb. assert (Nn : n <> 2 * idx) by (intro; subst; congruence).
        destruct (Rn _ Nn) as (Rp & Rl & _). destruct (get t n) as [[x|um]|] eqn:G; [rewrite (Rl x eq_refl); discriminate| |congruence].
        destruct (Rp um eq_refl) as (um' & G' & _). rewrite G'. discriminate. }
      induction k as [|k IH]; intros j x Rc; cbn [reach] in *.
      - destruct Rc as [[Nb ->]|[_ []]]. split; [left; split; [exact (NB _ Nb)|reflexivity]|exact Nb].
      - destruct Rc as [[Nb ->]|[Bk Rc]]; [split; [left; split; [exact (NB _ Nb)|reflexivity]|exact Nb]|].
        destruct (Rn _ (not_leaf_node k j idx)) as (_ & _ & Rb).
        destruct Rc as [Rc|Rc]; destruct (IH _ _ Rc) as [R2 Nx]; (split; [right; split; [exact (Rb Bk)|]|exact Nx]); [left|right]; exact R2.
    Qed.

    Theorem ph_add_rel : PHValid t d -> PHValid t2 d2.
    Proof.
      intros V k j. unfold valid_at. set (p := node (N.of_nat (S k)) j).
      destruct R as (Bl & (id & Lf) & Rn & Ro). destruct (Rn p (not_leaf_node k j idx)) as (Rp & Rl & Rb).
      destruct (get t p) as [[x|um]|] eqn:G; [rewrite (Rl x eq_refl); exact I| |rewrite (Rb eq_refl); exact I].
      destruct (Rp um eq_refl) as (um' & G' & F & O & Ma). rewrite G', (Dd p) by congruence.
      pose proof (V k j) as Vk. unfold valid_at in Vk. fold p in Vk. rewrite G in Vk.
      (* the new leaf is below p, and then unmerged at p, or below neither child *)
      assert (Cond : forall c, c = 2 * j \/ c = 2 * j + 1 -> mem idx um' = true \/ idx / 2 ^ N.of_nat k <> c).
      { intros c Hc. destruct (N.eq_dec (idx / 2 ^ N.of_nat (S k)) j) as [E|Ne]; [left; apply Ma, ancestor_node; exact E|].
        right. intro E. apply Ne, child_of. rewrite E. exact Hc. }
      destruct Vk as [(x & Rc & H)|(x & Rc & H)]; destruct (reach_add _ _ _ Rc) as [R2 Nx]; [left|right]; exists x;
        (split; [exact R2|]); rewrite (Dd _ Nx), H; f_equal; symmetry; apply content_add; try exact O; apply Cond;
        [right|left]; reflexivity.
    Qed.
  End Add.

  (* one Add, in the form apply_adds_preserves asks for (the invariant as one conjunction, d first) *)
  Lemma ph_add_leaf d t id start t' idx : wf3 t /\ PHValid t d -> tlen t + 2 < 2 ^ 25 -> 2 * start <= tlen t + 1 ->
    add_leaf t id start = TOk (t', idx) -> wf3 t' /\ PHValid t' d.
  Proof.
    intros [W V] S Hs A. split; [exact (wf3_add_leaf _ _ _ _ _ W S A)|].
    exact (ph_add_rel t t' idx d d W (add_leaf_rel _ _ _ _ _ S Hs A) (fun _ _ => eq_refl) V).
  Qed.

  (* all adds of a commit; the decoration of the new epoch may give the new leaves anything, it agrees with
     the old one on every node that was not blank *)
  Theorem ph_apply_adds ids : forall t start acc t' added d d',
    wf3 t -> tlen t + 2 * N.of_nat (length ids) < 2 ^ 25 -> 2 * start <= tlen t + 1 ->
    apply_adds t ids start acc = TOk (t', added) ->
    (forall n, get t n <> None -> d' n = d n) ->
    PHValid t d -> PHValid t' d'.
  Proof.
    intros t start acc t' added d d' W S Hs A Hd V.
    refine (proj2 (proj1 (apply_adds_preserves supported supported_le
      (fun t0 => wf3 t0 /\ PHValid t0 d') (ph_add_leaf d') ids t start acc t' added (conj W _) S Hs A))).
    apply (ph_same t t d d'); [|exact V]. intro n. split; [reflexivity|apply Hd].
  Qed.

  Theorem ph_batch_edit t removes updates adds t' added d d' :
    wf3 t -> tlen t + 2 * N.of_nat (length adds) < 2 ^ 25 ->
    batch_edit t removes updates adds = TOk (t', added) ->
    (* the new decoration: unchanged wherever the node survives; updated and added leaves are free *)
    (forall n, (forall l, In l (map fst updates) -> n <> 2 * l) -> get t n <> None -> d' n = d n) ->
    PHValid t d -> PHValid t' d'.
  Proof.
    intros W S B Hd V. apply batch_edit_ok in B. destruct B as (ta & tb & tc & td & R1 & U & Bp & Ad & -> & La & Lb & Lc).
    assert (Sm : small t) by (unfold small; lia).
    pose proof (apply_removes_preserves supported wf3 wf3_remove _ _ _ W Sm R1) as Wa.
    destruct (apply_updates_preserves wf3 (fun t0 i _ id W0 _ => wf3_set_leaf t0 i id W0) _ _ _ Wa U) as (Wb & Fl).
    assert (Sma : small ta) by (unfold small; lia). assert (Smb : small tb) by (unfold small; lia).
    pose proof (blank_paths_preserves supported wf3 wf3_blank_direct_path _ _ _ Wb Smb ltac:(rewrite Lb, <- La; exact Fl) Bp) as Wc.
    apply ph_trim. apply (ph_apply_adds adds tc 0 [] td added d' d' Wc ltac:(lia) ltac:(lia) Ad (fun _ _ => eq_refl)).
    apply (ph_updates ta updates tb tc d d' Sma U Bp); [|exact (ph_apply_removes _ _ _ d Sm R1 V)].
    (* a node that is not blank after the removes was not blank before *)
    intros n Hn Nb. apply (Hd n Hn). intro G. exact (Nb (apply_removes_none _ _ _ n R1 G)).
  Qed.

  (* the highest unfiltered position of the committer's path strictly below position i, if any *)
  Fixpoint next_below (flt : list bool) (i : nat) : option nat :=
    match i with
    | O => None
    | S i' => match nth_error flt i' with Some false => Some i' | _ => next_below flt i' end
    end.
  Definition dnode (sndr : N) (o : option nat) : N :=
    match o with Some i => lvl_node (N.of_nat (S i)) sndr | None => 2 * sndr end.

  Section Path.
    Variables (t1 t2 : tree) (sndr id : N) (flt : list bool) (d d2 : deco).
    Let t1' := set t1 (2 * sndr) (Some (Leaf id)).
    Hypothesis Sh : shape_ok t1.
    Hypothesis W5 : wf5 t1.
    Hypothesis Sm : small t1.
    Hypothesis Ap : apply_update_path t1 sndr id = TOk t2.
    Hypothesis Fl : filtered t1' sndr = Ok flt.
    (* the decoration of the new epoch: unchanged off the committer's path ... *)
    Hypothesis Doff : forall n, n <> 2 * sndr -> ~ ancestor n sndr -> get t1 n <> None -> d2 n = d n.
    (* ... and on it the parent hashes are computed top-down as RFC 9420 7.9 says: the node below an
       unfiltered path node P (the next unfiltered one, or the leaf) stores PHF of P's key, P's parent
       hash and the content of P's other child, nobody being unmerged at P any more *)
    Hypothesis Dpath : forall i, nth_error flt i = Some false ->
      snd (d2 (dnode sndr (next_below flt i))) =
      PHF (fst (d2 (lvl_node (N.of_nat (S i)) sndr))) (snd (d2 (lvl_node (N.of_nat (S i)) sndr)))
          (content t2 d2 [] i (sib (sndr / 2 ^ N.of_nat i))).

    Theorem ph_update_path : PHValid t1 d -> PHValid t2 d2.
    Proof.
      intro V.
      destruct (update_path_effect t1 sndr id t2 flt Sm Ap Fl) as (_ & Ls & Off & On & Ofl). fold t1' in Off, On, Ofl.
      pose proof (shape_set_leaf t1 sndr id Sh : shape_ok t1') as Sh'.
      pose proof (small_set t1 (2 * sndr) (Some (Leaf id)) Sm : small t1') as Sm'.
      pose proof (wf5_set_leaf t1 sndr id W5 Sh : wf5 t1') as W5'.
      (* a path node that is not unfiltered is blank, before and after *)
      assert (FB : forall i, nth_error flt i <> Some false -> get t2 (lvl_node (N.of_nat (S i)) sndr) = None).
      { intros i Hi.
        assert (E : get t2 (lvl_node (N.of_nat (S i)) sndr) = get t1' (lvl_node (N.of_nat (S i)) sndr)).
        { destruct (nth_error flt i) as [[|]|] eqn:Hf; [apply Ofl; exact Hf|congruence|].
          apply nth_error_None in Hf. apply Off. intros i0 Li E. apply lvl_node_inj in E. lia. }
        rewrite E. destruct (get t1' (lvl_node (N.of_nat (S i)) sndr)) as [[x|um]|] eqn:G; [| |reflexivity].
        - destruct (shape_parent_slot _ _ _ Sh' (lvl_node_odd (N.of_nat (S i)) sndr ltac:(lia)) G).
        - elim Hi. refine (nonblank_ancestor_unfiltered t1' sndr flt Sh' W5' Sm' _ Fl i um G).
          unfold t1'. rewrite get_set_same by exact Ls. discriminate. }
      assert (L2 : get t2 (2 * sndr) = Some (Leaf id)).
      { rewrite (update_path_get t1 sndr id t2 Sm Ap) by (intro A; exact (ancestor_not_leaf _ _ _ A eq_refl)).
        apply get_set_same. exact Ls. }
      (* reach from the path-side child of position i down to the next unfiltered node or the leaf *)
      assert (RP : forall i, (i <= length flt)%nat -> reach t2 i (sndr / 2 ^ N.of_nat i) (dnode sndr (next_below flt i))).
      { induction i as [|i IHi]; intro Li; cbn [reach next_below dnode].
        - left. cbn [N.of_nat]. rewrite N.pow_0_r, N.div_1_r, node_0. split; [congruence|reflexivity].
        - fold (lvl_node (N.of_nat (S i)) sndr).
          destruct (nth_error flt i) as [[|]|] eqn:Hf; [| |apply nth_error_None in Hf; lia].
          + right. split; [apply FB; congruence|].
            destruct (proj1 (child_of sndr i _) eq_refl) as [E|E]; [left|right]; rewrite <- E; apply IHi; lia.
          + left. split; [rewrite (On i Hf); discriminate|reflexivity]. }
      intros k j. destruct (N.eq_dec (sndr / 2 ^ N.of_nat (S k)) j) as [<-|Ne].
      - (* an ancestor of the committer *)
        unfold valid_at. fold (lvl_node (N.of_nat (S k)) sndr).
        destruct (nth_error flt k) as [[|]|] eqn:Hf; try (rewrite (FB k) by congruence; exact I).
        rewrite (On k Hf).
        assert (Lk : (k <= length flt)%nat) by (apply Nat.lt_le_incl, nth_error_Some; congruence).
        pose proof (RP k Lk) as Rk. pose proof (Dpath k Hf) as Dk.
        destruct (sib_cases (sndr / 2 ^ N.of_nat k)) as [[Ec Es]|[Ec Es]]; rewrite div_pow2_S in Ec, Es; [left|right];
          exists (dnode sndr (next_below flt k)); (split; [rewrite <- Ec; exact Rk|rewrite Dk, Es; reflexivity]).
      - (* not an ancestor: nothing below it has changed *)
        apply (valid_outside_many t1 t2 d d2 [sndr]); [|intros l [<-|[]]; exact Ne|exact (V k j)].
        apply one_leaf. intros n Nn Na. split; [|apply Doff; assumption].
        rewrite (update_path_get t1 sndr id t2 Sm Ap n Na). apply get_set_other. congruence.
    Qed.
  End Path.
End PH.

(* the group a member creates has no parent node *)
Theorem ph_initial PHF id d : PHValid PHF [Some (Leaf id)] d.
Proof.
  intros k j. unfold valid_at. rewrite get_beyond; [exact I|].
  rewrite Nat2N.inj_succ, <- N.add_1_r, node_succ. unfold tlen. cbn [length]. lia.
Qed.

(* one whole commit: the proposals, then the update path *)
Theorem ph_commit PHF t removes updates adds t1 added sndr id t2 flt d dm d2 :
  wf3 t -> wf5 t -> shape_ok t -> tlen t + 2 * N.of_nat (length adds) < 2 ^ 25 ->
  batch_edit t removes updates adds = TOk (t1, added) ->
  apply_update_path t1 sndr id = TOk t2 ->
  filtered (set t1 (2 * sndr) (Some (Leaf id))) sndr = Ok flt ->
  (forall n, (forall l, In l (map fst updates) -> n <> 2 * l) -> get t n <> None -> dm n = d n) ->
  (forall n, n <> 2 * sndr -> ~ ancestor n sndr -> get t1 n <> None -> d2 n = dm n) ->
  (forall i, nth_error flt i = Some false ->
     snd (d2 (dnode sndr (next_below flt i))) =
     PHF (fst (d2 (lvl_node (N.of_nat (S i)) sndr))) (snd (d2 (lvl_node (N.of_nat (S i)) sndr)))
         (content t2 d2 [] i (sib (sndr / 2 ^ N.of_nat i)))) ->
  PHValid PHF t d -> PHValid PHF t2 d2.
Proof.
  intros W3 W5 Sh S B A F Hm H2 Hp V. destruct (wf5_batch_edit _ _ _ _ _ _ W5 Sh S B) as [[Sh1 W51] L1].
  apply (ph_update_path PHF t1 t2 sndr id flt dm d2 Sh1 W51 ltac:(unfold small; lia) A F H2 Hp).
  exact (ph_batch_edit PHF t removes updates adds t1 added d dm W3 S B Hm V).
Qed.

(* the committer's computation of the parent hashes on its path (RFC 9420 7.9, parent_hash.rs
   update_parent_hashes), as a function: top-down, each unfiltered path node and finally the leaf store the
   hash of the next unfiltered node above them.  With it the hypothesis of ph_update_path is discharged. *)
Section Compute.
  Variable PHF : N -> N -> cterm -> N.
  Variables (t2 : tree) (d : deco) (sndr : N) (flt : list bool) (fk : N -> N) (leafkey : N).

  (* the lowest unfiltered position at or above i *)
  Fixpoint next_at_or_above (fuel i : nat) : option nat :=
    match fuel with
    | O => None
    | S f => match nth_error flt i with
             | Some false => Some i
             | Some true => next_at_or_above f (S i)
             | None => None
             end
    end.

  (* the parent hash stored in whatever sits just below position i (fuel = positions left above) *)
  Fixpoint ph_below (fuel i : nat) : N :=
    match fuel with
    | O => 0
    | S f => match nth_error flt i with
             | Some false => PHF (fk (N.of_nat i)) (ph_below f (S i)) (content t2 d [] i (sib (sndr / 2 ^ N.of_nat i)))
             | Some true => ph_below f (S i)
             | None => 0
             end
    end.

  Definition on_path (n : N) : option nat :=
    find (fun i => n =? lvl_node (N.of_nat (S i)) sndr) (seq 0 (length flt)).

  (* position i of the path is level i + 1 and gets the key fk i here; Model/Priv.v numbers the same keys by level,
     fk (i + 1) *)
  Definition decorate : deco := fun n =>
    if n =? 2 * sndr then (leafkey, ph_below (length flt) 0)
    else match on_path n with
         | Some i => match nth_error flt i with
                     | Some false => (fk (N.of_nat i), ph_below (length flt - S i) (S i))
                     | _ => d n
                     end
         | None => d n
         end.

  Lemma on_path_some n i : on_path n = Some i -> n = lvl_node (N.of_nat (S i)) sndr /\ (i < length flt)%nat.
  Proof.
    unfold on_path. intro F. apply find_some in F. destruct F as [I E]. apply in_seq in I.
    apply N.eqb_eq in E. split; [exact E|lia].
  Qed.

  Lemma on_path_lvl i : (i < length flt)%nat -> on_path (lvl_node (N.of_nat (S i)) sndr) = Some i.
  Proof.
    intro L. unfold on_path. destruct (find _ _) as [j|] eqn:F.
    - apply find_some in F. destruct F as [_ E]. apply N.eqb_eq, lvl_node_inj in E. f_equal. lia.
    - pose proof (find_none _ _ F i ltac:(apply in_seq; lia)) as E. cbv beta in E. rewrite N.eqb_refl in E. discriminate.
  Qed.

  Lemma decorate_off n : n <> 2 * sndr -> ~ ancestor n sndr -> decorate n = d n.
  Proof.
    intros Nn Na. unfold decorate. destruct (N.eqb_spec n (2 * sndr)) as [E|_]; [contradiction|].
    destruct (on_path n) as [i|] eqn:O; [|reflexivity].
    apply on_path_some in O. destruct O as [E _]. exfalso. apply Na. rewrite E. apply lvl_node_ancestor. lia.
  Qed.

  Lemma decorate_path_node i : nth_error flt i = Some false ->
    decorate (lvl_node (N.of_nat (S i)) sndr) = (fk (N.of_nat i), ph_below (length flt - S i) (S i)).
  Proof.
    intro Hf. assert (L : (i < length flt)%nat) by (apply nth_error_Some; congruence).
    unfold decorate. destruct (N.eqb_spec (lvl_node (N.of_nat (S i)) sndr) (2 * sndr)) as [E|_].
    - exfalso. exact (not_leaf_node i _ sndr E).
    - rewrite (on_path_lvl i L), Hf. reflexivity.
  Qed.

  (* the first position above the one next_below returns: where ph_below is to start *)
  Definition pos (o : option nat) : nat := match o with Some b => S b | None => O end.

  Lemma decorate_dnode o : (forall b, o = Some b -> nth_error flt b = Some false) ->
    snd (decorate (dnode sndr o)) = ph_below (length flt - pos o) (pos o).
  Proof.
    intro H. destruct o as [b|]; cbn [dnode pos].
    - rewrite (decorate_path_node b (H b eq_refl)). reflexivity.
    - unfold decorate. rewrite N.eqb_refl. cbn [snd]. rewrite Nat.sub_0_r. reflexivity.
  Qed.

  Lemma next_below_spec i : (forall b, next_below flt i = Some b -> nth_error flt b = Some false) /\
    (pos (next_below flt i) <= i)%nat /\
    (forall j, (pos (next_below flt i) <= j < i)%nat -> (j < length flt)%nat -> nth_error flt j = Some true).
  Proof.
    induction i as [|i (IH1 & IH2 & IH3)]; cbn [next_below].
    - split; [discriminate|]. split; [cbn; lia|]. intros; lia.
    - destruct (nth_error flt i) as [[|]|] eqn:Hf.
      + split; [exact IH1|]. split; [lia|]. intros j Hj Lj. destruct (Nat.eq_dec j i) as [->|Ne]; [exact Hf|apply IH3; [lia|exact Lj]].
      + split; [intros b E; inversion E; subst; exact Hf|]. split; [cbn [pos]; lia|]. cbn [pos]. intros; lia.
      + split; [exact IH1|]. split; [lia|]. intros j Hj Lj. destruct (Nat.eq_dec j i) as [->|Ne]; [apply nth_error_None in Hf; lia|apply IH3; [lia|exact Lj]].
  Qed.

  Lemma ph_below_skip a b : (a <= b)%nat -> (b <= length flt)%nat ->
    (forall j, (a <= j < b)%nat -> nth_error flt j = Some true) ->
    ph_below (length flt - a) a = ph_below (length flt - b) b.
  Proof.
    induction 1 as [|m L IH]; intros Lb T; [reflexivity|].
    rewrite IH by (try lia; intros j Hj; apply T; lia).
    replace (length flt - m)%nat with (S (length flt - S m)) by lia. cbn [ph_below]. rewrite (T m) by lia. reflexivity.
  Qed.

  Lemma decorate_recurrence i : nth_error flt i = Some false ->
    snd (decorate (dnode sndr (next_below flt i))) =
    PHF (fst (decorate (lvl_node (N.of_nat (S i)) sndr))) (snd (decorate (lvl_node (N.of_nat (S i)) sndr)))
        (content t2 decorate [] i (sib (sndr / 2 ^ N.of_nat i))).
  Proof.
    intro Hf. assert (L : (i < length flt)%nat) by (apply nth_error_Some; congruence).
    destruct (next_below_spec i) as (B1 & B2 & B3).
    rewrite (decorate_dnode _ B1), (decorate_path_node i Hf). cbn [fst snd].
    rewrite (ph_below_skip _ i B2) by (try lia; intros j Hj; apply B3; lia).
    replace (length flt - i)%nat with (S (length flt - S i)) by lia. cbn [ph_below]. rewrite Hf.
    f_equal. symmetry. apply content_agree. apply (agree_outside t2 t2 d decorate sndr).
    - intros n Nn Na. split; [reflexivity|intros _; apply decorate_off; assumption].
    - apply sib_neq.
  Qed.
End Compute.

(* with the committer's parent hashes computed by [decorate] no hypothesis about them is left *)
Theorem ph_update_path_computed PHF t1 sndr id t2 flt dm fk leafkey :
  shape_ok t1 -> wf5 t1 -> small t1 -> apply_update_path t1 sndr id = TOk t2 ->
  filtered (set t1 (2 * sndr) (Some (Leaf id))) sndr = Ok flt ->
  PHValid PHF t1 dm -> PHValid PHF t2 (decorate PHF t2 dm sndr flt fk leafkey).
Proof.
  intros Sh W5 Sm A F. apply (ph_update_path PHF t1 t2 sndr id flt dm _ Sh W5 Sm A F).
  - intros n Nn Na _. apply decorate_off; assumption.
  - intros i Hf. apply decorate_recurrence. exact Hf.
Qed.

Theorem ph_commit_computed PHF t removes updates adds t1 added sndr id t2 flt d dm fk leafkey :
  wf3 t -> wf5 t -> shape_ok t -> tlen t + 2 * N.of_nat (length adds) < 2 ^ 25 ->
  batch_edit t removes updates adds = TOk (t1, added) ->
  apply_update_path t1 sndr id = TOk t2 ->
  filtered (set t1 (2 * sndr) (Some (Leaf id))) sndr = Ok flt ->
  (forall n, (forall l, In l (map fst updates) -> n <> 2 * l) -> get t n <> None -> dm n = d n) ->
  PHValid PHF t d -> PHValid PHF t2 (decorate PHF t2 dm sndr flt fk leafkey).
Proof.
  intros W3 W5 Sh S B A F Hm V. destruct (wf5_batch_edit _ _ _ _ _ _ W5 Sh S B) as [[Sh1 W51] L1].
  apply (ph_update_path_computed PHF t1 sndr id t2 flt dm fk leafkey Sh1 W51 ltac:(unfold small; lia) A F).
  exact (ph_batch_edit PHF t removes updates adds t1 added d dm W3 S B Hm V).
Qed.
