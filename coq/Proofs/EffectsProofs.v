(* The transactionality checker of Model/Effects.v is sound: if `chk` finds no failure point behind a
   mutation, no run of the event list fails with the state touched. *)
From Coq Require Import NArith List Bool String.
From MlsV Require Import Effects.
Import ListNotations.
Local Open Scope N_scope.

(* The nested fixpoints inside chk1 do not fold back once unfolded; they are restated once in terms
   of the top-level `chk`. *)
Definition alts_spec (d : bool) :=
  fix alts (bs : list (list ev)) (acc : bool) {struct bs} : verdict :=
    match bs with
    | [] => Good acc
    | b :: r => match chk b d with Bad ln => Bad ln | Good db => alts r (acc || db) end
    end.

Lemma chkl_eq : forall l d,
  (fix chkl (l : list ev) (d : bool) {struct l} : verdict :=
     match l with
     | [] => Good d
     | x :: r => match chk1 x d with Bad ln => Bad ln | Good d' => chkl r d' end
     end) l d = chk l d.
Proof. induction l as [|x r IH]; intro d; [reflexivity|]. cbn [chk]. destruct (chk1 x d); [reflexivity|apply IH]. Qed.

Lemma chk1_alt bs d : chk1 (EAlt bs) d = alts_spec d bs d.
Proof.
  cbn [chk1]. generalize d at 2 4 as acc. induction bs as [|b r IH]; intro acc; [reflexivity|].
  cbn [alts_spec]. rewrite chkl_eq. destruct (chk b d); [reflexivity|apply IH].
Qed.

Lemma chk1_loop body d : chk1 (ELoop body) d =
  match chk body d with
  | Bad ln => Bad ln
  | Good db => if db && negb d then (match chk body true with Bad ln => Bad ln | Good _ => Good true end) else Good (d || db)
  end.
Proof. cbn [chk1]. rewrite !chkl_eq. reflexivity. Qed.

Fixpoint esize (e : ev) : nat :=
  let lsz := fix lsz (l : list ev) : nat := match l with [] => O | x :: t => S (esize x + lsz t) end in
  match e with
  | EAlt bs => S ((fix go (bs : list (list ev)) : nat := match bs with [] => O | b :: r => S (lsz b + go r) end) bs)
  | ELoop b => S (lsz b)
  | _ => 1%nat
  end.
Fixpoint lsize (l : list ev) : nat := match l with [] => O | x :: t => S (esize x + lsize t) end.
Lemma lsz_eq l : (fix lsz (l : list ev) : nat := match l with [] => O | x :: t => S (esize x + lsz t) end) l = lsize l.
Proof. reflexivity. Qed.

Definition dirty_le (a b : bool) : Prop := a = true -> b = true.
Definition covers (v : verdict) (o : outcome) : Prop :=
  match v with
  | Bad _ => True
  | Good de => match o with Failed df => df = false | Done dd => dirty_le dd de end
  end.
Lemma dirty_le_false d : dirty_le d false -> d = false.
Proof. intro L. destruct d; [specialize (L eq_refl); discriminate|reflexivity]. Qed.

Lemma alts_bad d bs : forall acc, (exists b, In b bs /\ exists ln, chk b d = Bad ln) -> exists ln, alts_spec d bs acc = Bad ln.
Proof.
  induction bs as [|x r IH]; intros acc (b & I & ln & E); [destruct I|]. cbn [alts_spec].
  destruct I as [<-|I]; [rewrite E; exists ln; reflexivity|].
  destruct (chk x d) as [l2|db]; [exists l2; reflexivity|]. apply IH. exists b. split; [exact I|exists ln; exact E].
Qed.

Lemma alts_good d bs : forall acc dd, alts_spec d bs acc = Good dd ->
  dirty_le acc dd /\ forall b, In b bs -> exists db, chk b d = Good db /\ dirty_le db dd.
Proof.
  induction bs as [|x r IH]; intros acc dd; cbn [alts_spec].
  - intro E. assert (acc = dd) by congruence. subst. split; [intro H; exact H|intros b []].
  - destruct (chk x d) as [l|db] eqn:Ex; [discriminate|]. intro E. destruct (IH _ _ E) as [La Lr]. split.
    + intro H. apply La. rewrite H. reflexivity.
    + intros b [<-|I]; [|exact (Lr b I)]. exists db. split; [exact Ex|]. intro H. apply La. rewrite H. apply orb_true_r.
Qed.

Scheme run1_mut := Minimality for run1 Sort Prop
  with runs_mut := Minimality for runs Sort Prop
  with loops_mut := Minimality for loops Sort Prop.
Combined Scheme run_mutind from run1_mut, runs_mut, loops_mut.

(* for a loop: if the body, checked from a bound, ends within that bound, every number of iterations stays within it *)
Theorem chk_ok :
  (forall e d o, run1 e d o -> forall dc, dirty_le d dc -> covers (chk1 e dc) o) /\
  (forall l d o, runs l d o -> forall dc, dirty_le d dc -> covers (chk l dc) o) /\
  (forall body d o, loops body d o -> forall bound x, chk body bound = Good x -> dirty_le x bound -> dirty_le d bound ->
     covers (Good bound) o).
Proof.
  apply run_mutind.
  - intros l d dc L. cbn [chk1]. destruct dc; [exact I|]. exact (dirty_le_false d L).
  - intros l d dc L. cbn [chk1]. destruct dc; [exact I|exact L].
  - intros w l d dc L H. exact H.
  - intros w l d dc L. cbn [chk1]. destruct dc; [exact I|]. exact (dirty_le_false d L).
  - intros w l d dc L. cbn [chk1]. destruct dc; [exact I|intro H; exact H].
  - intros bs b d o Hin _ IH dc L. rewrite chk1_alt. destruct (alts_spec dc bs dc) as [ln|dd] eqn:Ea; [exact I|].
    destruct (alts_good _ _ _ _ Ea) as [_ Lbs]. destruct (Lbs b Hin) as (db & Eb & Ldb).
    specialize (IH dc L). rewrite Eb in IH. destruct o as [df|dd']; [exact IH|]. intro H. apply Ldb, IH, H.
  - intros d dc L. exact L.
  - intros body d o _ IH dc L. rewrite chk1_loop. destruct (chk body dc) as [ln|db] eqn:Eb; [exact I|].
    destruct dc; cbn [negb orb].
    + rewrite andb_false_r. exact (IH true db Eb (fun _ => eq_refl) (fun _ => eq_refl)).
    + rewrite andb_true_r. destruct db; [|exact (IH false false Eb (fun H => H) L)].
      (* the body may dirty a clean state: it is checked again from the dirty state *)
      destruct (chk body true) as [ln|x] eqn:Eb2; [exact I|]. exact (IH true x Eb2 (fun _ => eq_refl) (fun _ => eq_refl)).
  - intros d dc L. exact L.
  - intros e rest d d' _ IH dc L. cbn [chk]. specialize (IH dc L). destruct (chk1 e dc) as [ln|de]; [exact I|].
    cbn [covers] in IH. subst d'. destruct (chk rest de); [exact I|reflexivity].
  - intros e rest d d' o _ IH1 _ IH2 dc L. cbn [chk]. specialize (IH1 dc L). destruct (chk1 e dc) as [ln|de]; [exact I|].
    exact (IH2 de IH1).
  - intros body d bound x _ _ L. exact L.
  - intros body d d' _ IH bound x Ex _ L. specialize (IH bound L). rewrite Ex in IH. exact IH.
  - intros body d d' o _ IH1 _ IH2 bound x Ex Lx L. apply (IH2 bound x Ex Lx).
    specialize (IH1 bound L). rewrite Ex in IH1. intro H. apply Lx, IH1, H.
Qed.

Theorem chk_sound evs dd : chk evs false = Good dd -> transactional evs.
Proof.
  intros E d R. destruct chk_ok as (_ & H & _).
  specialize (H evs false (Failed d) R false (fun h => h)). rewrite E in H. exact H.
Qed.

(* and the checker is not vacuous: a mutation followed by a failure point is refused *)
Example chk_refuses : chk [EMut "signer" 1; EFail 2] false = Bad 2.
Proof. reflexivity. Qed.
Example not_transactional : ~ transactional [EMut "signer" 1; EFail 2].
Proof.
  intro T. specialize (T true). assert (true = false); [|discriminate]. apply T.
  eapply r_cons_ok; [apply r_mut|]. apply r_cons_fail. apply r_fail.
Qed.
