(* Theorems about the generic codec model (Model/Codec.v), for ALL descriptors. *)
From Coq Require Import NArith PeanoNat List Bool Lia.
From MlsV Require Import Codec CodecPrim.
Import ListNotations.
Local Open Scope N_scope.
#[local] Arguments N.add : simpl never.
#[local] Arguments N.mul : simpl never.
#[local] Arguments N.div : simpl never.
#[local] Arguments N.modulo : simpl never.
#[local] Arguments N.pow : simpl never.
#[local] Arguments N.sub : simpl never.
#[local] Arguments N.ltb : simpl never.
#[local] Arguments N.leb : simpl never.
#[local] Arguments N.eqb : simpl never.

Ltac ind_ty t :=
  induction t as [w| | |n|t IHt|t IHt| |t1 IHt1 t2 IHt2|w t IHt|d t1 IHt1 t2 IHt2| | |o t1 IHt1 t2 IHt2|m t IHt|t IHt f IHf].

Fixpoint vcat (acc v : val) : val :=
  match acc with VCons h t => VCons h (vcat t v) | _ => v end.

Lemma vcat_vsnoc acc x r : vcat (vsnoc acc x) r = vcat acc (VCons x r).
Proof. induction acc; cbn [vsnoc vcat]; try reflexivity. rewrite IHacc2. reflexivity. Qed.

Definition is_chain (acc : val) : Prop := vcat acc VNil = acc.

Lemma is_chain_nil : is_chain VNil.
Proof. reflexivity. Qed.

Lemma is_chain_vsnoc acc x : is_chain acc -> is_chain (vsnoc acc x).
Proof.
  unfold is_chain. rewrite vcat_vsnoc.
  induction acc; cbn [vcat vsnoc]; intro H; try discriminate; try reflexivity.
  inversion H as [H1]. rewrite H1. f_equal. apply IHacc2. assumption.
Qed.

(* [val_eqb], by which map.rs finds a duplicate key, is equality of values *)
Lemma list_N_eqb_eq a : forall b, list_N_eqb a b = true <-> a = b.
Proof.
  induction a as [|x a IH]; destruct b as [|y b]; cbn [list_N_eqb]; split; try discriminate; try reflexivity.
  - intro H. apply andb_true_iff in H. destruct H as [H1 H2]. apply N.eqb_eq in H1. apply IH in H2. congruence.
  - intro H. inversion H; subst. rewrite N.eqb_refl. cbn. apply IH. reflexivity.
Qed.

Lemma val_eqb_refl a : val_eqb a a = true.
Proof.
  induction a; cbn [val_eqb]; rewrite ?IHa, ?IHa1, ?IHa2, ?N.eqb_refl; try reflexivity.
  - apply Bool.eqb_reflx.
  - apply list_N_eqb_eq. reflexivity.
Qed.

Lemma val_eqb_eq a : forall c, val_eqb a c = true <-> a = c.
Proof.
  intro c. split; [|intros <-; apply val_eqb_refl]. revert c.
  induction a; destruct c; cbn [val_eqb]; try discriminate; intro H.
  - apply N.eqb_eq in H. congruence.
  - apply Bool.eqb_prop in H. congruence.
  - apply list_N_eqb_eq in H. congruence.
  - reflexivity.
  - apply andb_true_iff in H. destruct H as [H1 H2]. apply IHa1 in H1. apply IHa2 in H2. congruence.
  - reflexivity.
  - apply IHa in H. congruence.
  - apply andb_true_iff in H. destruct H as [H1 H2]. apply N.eqb_eq in H1. apply IHa in H2. congruence.
Qed.

Fixpoint map_ok (acc m : val) : bool :=
  match m with
  | VNil => true
  | VCons (VCons k x) r => negb (map_has_key k acc) && map_ok (vsnoc acc (VCons k x)) r
  | _ => false
  end.

Fixpoint all_items (p : val -> bool) (v : val) : bool :=
  match v with VNil => true | VCons x r => p x && all_items p r | _ => false end.

Fixpoint all_entries (pk pv : val -> bool) (v : val) : bool :=
  match v with
  | VNil => true
  | VCons (VCons k x) r => pk k && pv x && all_entries pk pv r
  | _ => false
  end.

(* [vwf t v]: inside v every map has pairwise distinct keys and every leaf index is within
   the 2^24 bound (nothing else is required: ill-typed values are already excluded by
   [encode t v = Some _]) *)
Fixpoint vwf (t : ty) (v : val) {struct t} : bool :=
  match t with
  | TVec t' => all_items (vwf t') v
  | TOpt t' => match v with VSome x => vwf t' x | _ => true end
  | TPair a b => match v with VCons x y => vwf a x && vwf b y | _ => true end
  | TEnum _ c => vwf c v
  | TCase d' p r => match v with
                    | VEnum d q => if d =? d' then vwf p q else vwf r v
                    | _ => true end
  | TMap _ k x => map_ok VNil v && all_entries (vwf k) (vwf x) v
  | TDefault _ p => match v with VEnum _ q => vwf p q | _ => true end
  | TDep a f => match v with VCons x y => vwf a x && vwf (f x) y | _ => true end
  | TLeafIndex => match v with VU n => n <=? max_leaf_index | _ => true end
  | _ => true
  end.

Lemma obind_some {A B} (m : option A) (f : A -> option B) y :
  obind m f = Some y -> exists a, m = Some a /\ f a = Some y.
Proof. destruct m as [a|]; [|discriminate]. intro H. exists a. split; [reflexivity|exact H]. Qed.

Lemma encode_inv t v bs : encode t v = Some bs ->
  match t with
  | TU w => exists n, v = VU n /\ n < 256 ^ N.of_nat w /\ bs = be_bytes w n
  | TBool => exists b : bool, v = VBool b /\ bs = [if b then 1 else 0]
  | TBytes => exists l, v = VBytes l /\ with_len l = Some bs
  | TArr n => v = VBytes bs /\ length bs = n
  | TVec a => exists body, enc_items (encode a) v = Some body /\ with_len body = Some bs
  | TOpt a => (v = VNone /\ bs = [0]) \/ exists x ea, v = VSome x /\ encode a x = Some ea /\ bs = 1 :: ea
  | TUnit => v = VNil /\ bs = []
  | TPair a b => exists x y ea eb, v = VCons x y /\ encode a x = Some ea /\ encode b y = Some eb /\ bs = ea ++ eb
  | TEnum w c => exists d p eb, v = VEnum d p /\ d < 256 ^ N.of_nat w /\ encode c v = Some eb /\ bs = be_bytes w d ++ eb
  | TCase d' a r => exists d p, v = VEnum d p /\ (if d =? d' then encode a p else encode r v) = Some bs
  | TNoCase => False
  | TLeafIndex => exists n, v = VU n /\ n < 256 ^ 4 /\ bs = be_bytes 4 n
  | TMap _ k x => exists body, enc_entries (encode k) (encode x) v = Some body /\ with_len body = Some bs
  | TDefault m a => exists d p, v = VEnum d p /\ m <= d /\ encode a p = Some bs
  | TDep a f => exists x y ea eb, v = VCons x y /\ encode a x = Some ea /\ encode (f x) y = Some eb /\ bs = ea ++ eb
  end.
Proof.
  destruct t; cbn [encode]; intro He; try (apply obind_some in He; exact He); destruct v; try discriminate.
  - destruct (N.ltb_spec n (256 ^ N.of_nat w)); [|discriminate]. injection He as <-. eauto.
  - injection He as <-. eauto.
  - eauto.
  - destruct (Nat.eqb (length l) n) eqn:E; [|discriminate]. injection He as <-. apply Nat.eqb_eq in E. auto.
  - injection He as <-. auto.
  - apply obind_some in He. destruct He as (ea & E & He). injection He as <-. eauto 6.
  - injection He as <-. auto.
  - apply obind_some in He. destruct He as (ea & E1 & He). apply obind_some in He. destruct He as (eb & E2 & He).
    injection He as <-. eauto 8.
  - destruct (N.ltb_spec d (256 ^ N.of_nat w)); [|discriminate].
    apply obind_some in He. destruct He as (eb & E & He). injection He as <-. eauto 8.
  - eauto.
  - destruct (N.ltb_spec n (256 ^ 4)); [|discriminate]. injection He as <-. eauto.
  - destruct (N.leb_spec min d); [|discriminate]. eauto.
  - apply obind_some in He. destruct He as (ea & E1 & He). apply obind_some in He. destruct He as (eb & E2 & He).
    injection He as <-. eauto 8.
Qed.

Fixpoint fields (n : nat) (v : val) : Prop :=
  match n with O => v = VNil | S n => exists x r, v = VCons x r /\ fields n r end.

Lemma encode_tstruct fs : forall v bs, encode (tstruct fs) v = Some bs -> fields (length fs) v.
Proof.
  induction fs as [|f fs IH]; intros v bs E; cbn [tstruct] in E; apply encode_inv in E.
  - exact (proj1 E).
  - destruct E as (x & y & ea & eb & -> & _ & E & _). exists x, y. split; [reflexivity|exact (IH _ _ E)].
Qed.

Lemma with_len_nonempty body bs : with_len body = Some bs -> bs <> [].
Proof.
  unfold with_len. destruct (encode_varint _) as [h|] eqn:E; [|discriminate]. cbn [obind].
  intro H. injection H as <-. apply encode_varint_nonempty in E. destruct h; [congruence|discriminate].
Qed.

Lemma be_bytes_nonempty w n : w <> 0%nat -> be_bytes w n <> [].
Proof. destruct w; [congruence|]. cbn [be_bytes]. discriminate. Qed.

Lemma nonempty_sound t : forall v bs, nonempty t = true -> encode t v = Some bs -> bs <> [].
Proof.
  ind_ty t; intros v bs Hn He; cbn [nonempty] in Hn; try discriminate; apply encode_inv in He.
  - destruct He as (n & _ & _ & ->). apply be_bytes_nonempty. destruct w; [discriminate|lia].
  - destruct He as (b & _ & ->). discriminate.
  - destruct He as (l & _ & He). eapply with_len_nonempty, He.
  - destruct He as [_ <-]. destruct bs; discriminate.
  - destruct He as (body & _ & He). eapply with_len_nonempty, He.
  - destruct He as [[_ ->]|(x & ea & _ & _ & ->)]; discriminate.
  - destruct He as (x & y & ea & eb & _ & E1 & E2 & ->). intro E. apply app_eq_nil in E. destruct E as [-> ->].
    apply orb_true_iff in Hn. destruct Hn as [H|H]; [apply (IHt1 _ _ H E1)|apply (IHt2 _ _ H E2)]; reflexivity.
  - destruct He as (d & p & eb & _ & _ & _ & ->). intro E. apply app_eq_nil in E. destruct E as [E _]. revert E.
    apply be_bytes_nonempty. destruct w; [discriminate|lia].
  - destruct He as (n & _ & _ & ->). discriminate.
  - destruct He as (body & _ & He). eapply with_len_nonempty, He.
  - destruct He as (x & y & ea & eb & _ & E1 & _ & ->). intro E. apply app_eq_nil in E. destruct E as [-> _].
    apply (IHt _ _ Hn E1). reflexivity.
Qed.

(* one turn of a loop over a ++ m ++ c, where the item a ++ m is not empty, leaves c: fuel
   remains, and the zero-progress guard does not fire *)
Lemma loop_turn {A} (a m c : list A) fuel : a <> [] -> (length (a ++ m ++ c) <= fuel)%nat ->
  exists fuel', fuel = S fuel' /\ Nat.eqb (length c) (length (a ++ m ++ c)) = false /\ (length c <= fuel')%nat.
Proof.
  intros Ha Hf. destruct a; [congruence|]. rewrite !app_length in *. cbn [length] in *.
  destruct fuel as [|fuel']; [lia|]. exists fuel'. split; [reflexivity|]. split; [apply Nat.eqb_neq|]; lia.
Qed.

Section LoopRoundtrip.
  Variables (enc : val -> option (list N)) (dec : list N -> dres (val * list N)) (ok : val -> bool).
  Hypothesis Hrt : forall x a rest, ok x = true -> enc x = Some a -> dec (a ++ rest) = DOk (x, rest).
  Hypothesis Hne : forall x a, enc x = Some a -> a <> [].

  Lemma vec_loop_roundtrip v : forall body fuel acc,
    is_chain acc -> all_items ok v = true -> enc_items enc v = Some body -> (length body <= fuel)%nat ->
    vec_loop dec fuel body acc = DOk (vcat acc v).
  Proof.
    induction v; intros body fuel acc Hc Hok He Hf; cbn [enc_items all_items] in *; try discriminate.
    - injection He as <-. unfold is_chain in Hc. rewrite Hc. destruct fuel; reflexivity.
    - apply andb_true_iff in Hok. destruct Hok as [Hx Hr].
      destruct (enc v1) as [a|] eqn:Ea; [|discriminate]. destruct (enc_items enc v2) as [b|] eqn:Eb; [|discriminate].
      injection He as <-. pose proof (Hne _ _ Ea) as Hna.
      destruct (loop_turn a [] b fuel Hna Hf) as (fuel' & -> & L & Hf'). cbn [app] in L.
      destruct a as [|a0 a']; [congruence|]. cbn [app vec_loop]. change (a0 :: a' ++ b) with ((a0 :: a') ++ b).
      rewrite (Hrt _ _ _ Hx Ea). cbn [dbind]. rewrite L.
      rewrite (IHv2 b fuel' _ (is_chain_vsnoc _ _ Hc) Hr eq_refl Hf'), vcat_vsnoc. reflexivity.
  Qed.
End LoopRoundtrip.

Section MapRoundtrip.
  Variables (enck encv : val -> option (list N)) (deck decv : list N -> dres (val * list N)) (okk okv : val -> bool).
  Hypothesis Hrtk : forall x a rest, okk x = true -> enck x = Some a -> deck (a ++ rest) = DOk (x, rest).
  Hypothesis Hrtv : forall x a rest, okv x = true -> encv x = Some a -> decv (a ++ rest) = DOk (x, rest).
  Hypothesis Hnek : forall x a, enck x = Some a -> a <> [].

  Lemma map_loop_roundtrip v : forall body fuel acc,
    is_chain acc -> map_ok acc v = true -> all_entries okk okv v = true ->
    enc_entries enck encv v = Some body -> (length body <= fuel)%nat ->
    map_loop deck decv fuel body acc = DOk (vcat acc v).
  Proof.
    induction v; intros body fuel acc Hc Hm Hok He Hf; cbn [enc_entries all_entries map_ok] in *; try discriminate.
    - injection He as <-. unfold is_chain in Hc. rewrite Hc. destruct fuel; reflexivity.
    - destruct v1; try discriminate.
      apply andb_true_iff in Hm. destruct Hm as [Hk Hm]. apply negb_true_iff in Hk.
      apply andb_true_iff in Hok. destruct Hok as [Hok Hr]. apply andb_true_iff in Hok. destruct Hok as [Hok1 Hok2].
      destruct (enck v1_1) as [a|] eqn:Ea; [|discriminate]. destruct (encv v1_2) as [b|] eqn:Eb; [|discriminate].
      destruct (enc_entries enck encv v2) as [c|] eqn:Ec; [|discriminate].
      injection He as <-. pose proof (Hnek _ _ Ea) as Hna.
      destruct (loop_turn a b c fuel Hna Hf) as (fuel' & -> & L & Hf').
      destruct a as [|a0 a']; [congruence|]. cbn [app map_loop]. change (a0 :: a' ++ b ++ c) with ((a0 :: a') ++ b ++ c).
      rewrite (Hrtk _ _ _ Hok1 Ea). cbn [dbind]. rewrite (Hrtv _ _ _ Hok2 Eb). cbn [dbind]. rewrite L, Hk. cbn [orb].
      rewrite (IHv2 c fuel' _ (is_chain_vsnoc _ _ Hc) Hm Hr eq_refl Hf'), vcat_vsnoc. reflexivity.
  Qed.
End MapRoundtrip.

Definition tag (v : val) : option N := match v with VEnum d _ => Some d | _ => None end.

(* a case chain (c = true) is decoded with the discriminant of the value already read; the
   other descriptors ignore [disc] *)
Lemma roundtrip_gen t : forall c v bs rest disc,
  wfP c t -> vwf t v = true -> encode t v = Some bs -> (c = true -> disc = tag v) ->
  decode t disc (bs ++ rest) = DOk (v, rest).
Proof.
  ind_ty t; intros c v bs rest disc W Hv He Hd; cbn [wfP] in W; apply encode_inv in He; cbn [decode].
  - (* TU *) destruct He as (n & -> & Hn & ->). rewrite decode_uint_encode by assumption. reflexivity.
  - (* TBool *) destruct He as ([|] & -> & ->); reflexivity.
  - (* TBytes *) destruct He as (l & -> & He). rewrite (split_with_len _ _ _ He). reflexivity.
  - (* TArr *) destruct He as [-> <-]. rewrite take_n_app. reflexivity.
  - (* TVec *) destruct W as (_ & W1 & W2). destruct He as (body & Eb & He).
    rewrite (split_with_len _ _ _ He). cbn [dbind]. cbn [vwf] in Hv.
    rewrite vec_loop_roundtrip with (enc := encode t) (ok := vwf t) (v := v); try assumption.
    + reflexivity.
    + intros x a r Hx Ha. apply (IHt false _ _ _ None W2 Hx Ha). discriminate.
    + intros x a Ha. eapply nonempty_sound; eassumption.
    + apply is_chain_nil.
    + apply le_n.
  - (* TOpt *) destruct W as (_ & W). destruct He as [[-> ->]|(x & ea & -> & Ea & ->)]; [reflexivity|].
    change (1 :: ea) with (be_bytes 1 1 ++ ea). rewrite <- app_assoc, decode_uint_encode by reflexivity.
    cbn [dbind]. change (1 =? 0) with false. change (1 =? 1) with true. cbv iota.
    cbn [vwf] in Hv. rewrite (IHt false x ea rest None W Hv Ea) by discriminate. reflexivity.
  - (* TUnit *) destruct He as [-> ->]. reflexivity.
  - (* TPair *) destruct W as (_ & W1 & W2). destruct He as (x & y & ea & eb & -> & E1 & E2 & ->).
    cbn [vwf] in Hv. apply andb_true_iff in Hv. destruct Hv as [Hv1 Hv2].
    rewrite <- app_assoc. rewrite (IHt1 false _ _ _ None W1 Hv1 E1) by discriminate. cbn [dbind].
    rewrite (IHt2 false _ _ _ None W2 Hv2 E2) by discriminate. reflexivity.
  - (* TEnum *) destruct W as (_ & W). destruct He as (d & p & eb & -> & Hd' & Ep & ->).
    rewrite <- app_assoc, decode_uint_encode by assumption. cbn [dbind]. cbn [vwf] in Hv.
    apply (IHt true _ _ _ _ W Hv Ep). reflexivity.
  - (* TCase *) destruct W as (Wc & W1 & W3). destruct He as (d0 & p0 & -> & He).
    rewrite (Hd Wc). cbn [tag]. cbn [vwf] in Hv. destruct (N.eqb_spec d0 d).
    + rewrite (IHt1 false _ _ _ None W1 Hv He) by discriminate. reflexivity.
    + apply (IHt2 true _ _ _ _ W3 Hv He). reflexivity.
  - (* TNoCase *) destruct He.
  - (* TLeafIndex *) destruct He as (n & -> & Hn & ->).
    rewrite decode_uint_encode by assumption. cbn [dbind]. cbn [vwf] in Hv. rewrite Hv. reflexivity.
  - (* TMap *) destruct W as (_ & W1 & W2 & W3). destruct He as (body & Eb & He).
    rewrite (split_with_len _ _ _ He). cbn [dbind]. cbn [vwf] in Hv. apply andb_true_iff in Hv. destruct Hv as [Hm Ha].
    rewrite map_loop_roundtrip with (enck := encode t1) (encv := encode t2) (okk := vwf t1) (okv := vwf t2) (v := v); try assumption.
    + reflexivity.
    + intros x a r Hx Hea. apply (IHt1 false _ _ _ None W2 Hx Hea). discriminate.
    + intros x a r Hx Hea. apply (IHt2 false _ _ _ None W3 Hx Hea). discriminate.
    + intros x a Hea. eapply nonempty_sound; eassumption.
    + apply is_chain_nil.
    + apply le_n.
  - (* TDefault *) destruct W as (Wc & W). destruct He as (d0 & p0 & -> & Hm & He).
    rewrite (Hd Wc). cbn [tag]. cbn [vwf] in Hv. destruct (N.ltb_spec d0 m); [lia|].
    rewrite (IHt false _ _ _ None W Hv He) by discriminate. reflexivity.
  - (* TDep *) destruct W as (_ & W1 & W2). destruct He as (x & y & ea & eb & -> & E1 & E2 & ->).
    cbn [vwf] in Hv. apply andb_true_iff in Hv. destruct Hv as [Hv1 Hv2].
    rewrite <- app_assoc. rewrite (IHt false _ _ _ None W1 Hv1 E1) by discriminate. cbn [dbind].
    rewrite (IHf x false _ _ _ None (W2 x) Hv2 E2) by discriminate. reflexivity.
Qed.

Theorem roundtrip t v bs rest :
  wf t -> vwf t v = true -> encode t v = Some bs -> decode t None (bs ++ rest) = DOk (v, rest).
Proof. intros W Hv He. apply (roundtrip_gen t false _ _ _ _ W Hv He). discriminate. Qed.

Lemma with_len_size body bs :
  with_len body = Some bs ->
  N.of_nat (length bs) = header_len (N.of_nat (length body)) + N.of_nat (length body).
Proof.
  unfold with_len. destruct (encode_varint (N.of_nat (length body))) as [h|] eqn:E; [|discriminate].
  cbn [obind]. intro H. injection H as <-. rewrite app_length, Nnat.Nat2N.inj_add.
  rewrite (encode_varint_len _ _ E). unfold header_len.
  rewrite (proj2 (N.leb_le _ _) (encode_varint_max _ _ E)). reflexivity.
Qed.

Lemma size_items_exact enc sz v : forall body,
  (forall x a, enc x = Some a -> sz x = N.of_nat (length a)) ->
  enc_items enc v = Some body -> size_items sz v = N.of_nat (length body).
Proof.
  induction v; intros body H He; cbn [enc_items size_items] in *; try discriminate.
  - injection He as <-. reflexivity.
  - destruct (enc v1) as [a|] eqn:Ea; [|discriminate]. destruct (enc_items enc v2) as [b|] eqn:Eb; [|discriminate].
    injection He as <-. rewrite app_length, Nnat.Nat2N.inj_add.
    rewrite (H _ _ Ea), (IHv2 b H eq_refl). reflexivity.
Qed.

Lemma size_entries_exact enck encv szk szv v : forall body,
  (forall x a, enck x = Some a -> szk x = N.of_nat (length a)) ->
  (forall x a, encv x = Some a -> szv x = N.of_nat (length a)) ->
  enc_entries enck encv v = Some body -> size_entries szk szv v = N.of_nat (length body).
Proof.
  induction v; intros body Hk Hv He; cbn [enc_entries size_entries] in *; try discriminate.
  - injection He as <-. reflexivity.
  - destruct v1; try discriminate.
    destruct (enck v1_1) as [a|] eqn:Ea; [|discriminate]. destruct (encv v1_2) as [b|] eqn:Eb; [|discriminate].
    destruct (enc_entries enck encv v2) as [c|] eqn:Ec; [|discriminate].
    injection He as <-. rewrite !app_length, !Nnat.Nat2N.inj_add.
    rewrite (Hk _ _ Ea), (Hv _ _ Eb), (IHv2 c Hk Hv eq_refl). symmetry. apply N.add_assoc.
Qed.

Theorem size_exact t : forall v bs, encode t v = Some bs -> size t v = N.of_nat (length bs).
Proof.
  ind_ty t; intros v bs He; apply encode_inv in He; cbn [size].
  - destruct He as (n & _ & _ & ->). rewrite be_bytes_length. reflexivity.
  - destruct He as (b & _ & ->). reflexivity.
  - destruct He as (l & -> & He). rewrite (with_len_size _ _ He). reflexivity.
  - destruct He as [_ <-]. reflexivity.
  - destruct He as (body & Eb & He). rewrite (with_len_size _ _ He), (size_items_exact _ _ _ _ IHt Eb). reflexivity.
  - destruct He as [[-> ->]|(x & ea & -> & Ea & ->)]; [reflexivity|]. rewrite (IHt _ _ Ea). cbn [length]. lia.
  - destruct He as [-> ->]. reflexivity.
  - destruct He as (x & y & ea & eb & -> & E1 & E2 & ->).
    rewrite app_length, Nnat.Nat2N.inj_add, (IHt1 _ _ E1), (IHt2 _ _ E2). reflexivity.
  - destruct He as (d & p & eb & _ & _ & Ep & ->).
    rewrite app_length, Nnat.Nat2N.inj_add, be_bytes_length, (IHt _ _ Ep). reflexivity.
  - destruct He as (d0 & p & -> & He). destruct (d0 =? d); [apply IHt1, He|apply IHt2, He].
  - destruct He.
  - destruct He as (n & _ & _ & ->). reflexivity.
  - destruct He as (body & Eb & He).
    rewrite (with_len_size _ _ He), (size_entries_exact _ _ _ _ _ _ IHt1 IHt2 Eb). reflexivity.
  - destruct He as (d & p & -> & _ & He). apply IHt, He.
  - destruct He as (x & y & ea & eb & -> & E1 & E2 & ->).
    rewrite app_length, Nnat.Nat2N.inj_add, (IHt _ _ E1), (IHf _ _ _ E2). reflexivity.
Qed.

Section LoopFuel.
  Variable dec : list N -> dres (val * list N).
  Hypothesis Hdec : forall bs, unread (length bs) (dec bs).

  Lemma vec_loop_fuel fuel : forall data acc,
    (length data <= fuel)%nat -> vec_loop dec fuel data acc <> DErr EOutOfFuel.
  Proof.
    induction fuel; intros data acc Hf; destruct data as [|b data]; cbn [vec_loop]; try discriminate.
    - cbn in Hf. lia.
    - specialize (Hdec (b :: data)). destruct (dec (b :: data)) as [[x d']|e]; cbn in Hdec; cbn [dbind]; [|congruence].
      destruct (Nat.eqb (length d') (length (b :: data))) eqn:L; [discriminate|].
      apply IHfuel. apply Nat.eqb_neq in L. cbn [length] in *. lia.
  Qed.
End LoopFuel.

Section MapFuel.
  Variables deck decv : list N -> dres (val * list N).
  Hypothesis Hdeck : forall bs, unread (length bs) (deck bs).
  Hypothesis Hdecv : forall bs, unread (length bs) (decv bs).

  Lemma map_loop_fuel fuel : forall data acc,
    (length data <= fuel)%nat -> map_loop deck decv fuel data acc <> DErr EOutOfFuel.
  Proof.
    induction fuel; intros data acc Hf; destruct data as [|b data]; cbn [map_loop]; try discriminate.
    - cbn in Hf. lia.
    - specialize (Hdeck (b :: data)). destruct (deck (b :: data)) as [[k d1]|e]; cbn in Hdeck; cbn [dbind]; [|congruence].
      specialize (Hdecv d1). destruct (decv d1) as [[x d2]|e]; cbn in Hdecv; cbn [dbind]; [|congruence].
      destruct (Nat.eqb (length d2) (length (b :: data)) || map_has_key k acc) eqn:L; [discriminate|].
      apply IHfuel. apply orb_false_iff in L. destruct L as [L _]. apply Nat.eqb_neq in L. cbn [length] in *. lia.
  Qed.
End MapFuel.

Lemma unread_map {A B} n (m : dres (A * list N)) (g : A -> B) :
  unread n m -> unread n (dbind m (fun '(a, r) => DOk (g a, r))).
Proof. intro H. apply unread_bind; [exact H|]. intros a r L. exact L. Qed.

Lemma unread_collection (loop : list N -> dres val) bs n :
  (forall data, loop data <> DErr EOutOfFuel) -> (length bs <= n)%nat ->
  unread n (dbind (split_collection bs) (fun '(data, rest) => dbind (loop data) (fun items => DOk (items, rest)))).
Proof.
  intros Hl L. apply unread_bind; [apply unread_split, L|]. intros data rest Lr. cbn.
  specialize (Hl data). destruct (loop data); cbn; [exact Lr|congruence].
Qed.

Lemma decode_unread t : forall k disc bs, (length bs <= k)%nat -> unread k (decode t disc bs).
Proof.
  ind_ty t; intros k disc bs L; cbn [decode].
  - apply unread_map, unread_take, L.
  - apply unread_bind; [apply unread_take, L|]. intros a r Lr. cbn.
    destruct (a =? 0); [exact Lr|]. destruct (a =? 1); [exact Lr|discriminate].
  - apply unread_map, unread_split, L.
  - apply unread_take, L.
  - apply (unread_collection (fun data => vec_loop (decode t None) (length data) data VNil)); [|exact L].
    intro data. apply vec_loop_fuel; [|apply le_n]. intro bs'. apply IHt, le_n.
  - apply unread_bind; [apply unread_take, L|]. intros a r Lr. cbn.
    destruct (a =? 0); [exact Lr|]. destruct (a =? 1); [|discriminate]. apply unread_map, IHt, Lr.
  - exact L.
  - apply unread_bind; [apply IHt1, L|]. intros x r Lr. apply unread_map, IHt2, Lr.
  - apply unread_bind; [apply unread_take, L|]. intros d r Lr. apply IHt, Lr.
  - destruct disc as [d0|]; [|discriminate]. destruct (d0 =? d); [apply unread_map, IHt1, L|apply IHt2, L].
  - destruct disc; discriminate.
  - apply unread_bind; [apply unread_take, L|]. intros a r Lr. cbn.
    destruct (a <=? max_leaf_index); [exact Lr|discriminate].
  - apply (unread_collection (fun data => map_loop (decode t1 None) (decode t2 None) (length data) data VNil)); [|exact L].
    intro data. apply map_loop_fuel; [| |apply le_n]; intro bs'; [apply IHt1|apply IHt2]; apply le_n.
  - destruct disc as [d0|]; [|discriminate]. destruct (d0 <? m); [discriminate|]. apply unread_map, IHt, L.
  - apply unread_bind; [apply IHt, L|]. intros x r Lr. apply unread_map, IHf, Lr.
Qed.

Theorem decode_consumes t disc bs v r : decode t disc bs = DOk (v, r) -> (length r <= length bs)%nat.
Proof. intro H. pose proof (decode_unread t _ disc bs (le_n _)) as W. rewrite H in W. exact W. Qed.

Theorem decode_never_out_of_fuel t disc bs : decode t disc bs <> DErr EOutOfFuel.
Proof. intro H. pose proof (decode_unread t _ disc bs (le_n _)) as W. rewrite H in W. apply W. reflexivity. Qed.

Section LoopCanon.
  Variables (enc : val -> option (list N)) (dec : list N -> dres (val * list N)).
  Hypothesis Hcanon : forall bs, bytes_ok bs -> reads enc [] bs (dec bs).

  Lemma vec_loop_canon fuel : forall data acc items,
    is_chain acc -> bytes_ok data -> vec_loop dec fuel data acc = DOk items ->
    exists v, items = vcat acc v /\ enc_items enc v = Some data.
  Proof.
    induction fuel; intros data acc items Hc Hok H; destruct data as [|b data]; cbn [vec_loop] in H; try discriminate.
    1, 2: injection H as <-; exists VNil; split; [symmetry; exact Hc|reflexivity].
    specialize (Hcanon _ Hok). destruct (dec (b :: data)) as [[x d']|e]; cbn [dbind] in H; [|discriminate].
    destruct (Nat.eqb (length d') (length (b :: data))); [discriminate|].
    destruct Hcanon as (a & Ha & Hs). rewrite Hs in Hok. apply Forall_app in Hok.
    destruct (IHfuel d' (vsnoc acc x) items (is_chain_vsnoc _ _ Hc) (proj2 Hok) H) as (v & Hv & Hev).
    exists (VCons x v). split.
    + rewrite Hv, vcat_vsnoc. reflexivity.
    + cbn [enc_items]. rewrite Ha, Hev. cbn [obind]. rewrite Hs. reflexivity.
  Qed.
End LoopCanon.

Section MapCanon.
  Variables (enck encv : val -> option (list N)) (deck decv : list N -> dres (val * list N)).
  Hypothesis Hck : forall bs, bytes_ok bs -> reads enck [] bs (deck bs).
  Hypothesis Hcv : forall bs, bytes_ok bs -> reads encv [] bs (decv bs).

  Lemma map_loop_canon fuel : forall data acc items,
    is_chain acc -> bytes_ok data -> map_loop deck decv fuel data acc = DOk items ->
    exists v, items = vcat acc v /\ enc_entries enck encv v = Some data.
  Proof.
    induction fuel; intros data acc items Hc Hok H; destruct data as [|b data]; cbn [map_loop] in H; try discriminate.
    1, 2: injection H as <-; exists VNil; split; [symmetry; exact Hc|reflexivity].
    specialize (Hck _ Hok). destruct (deck (b :: data)) as [[k d1]|e]; cbn [dbind] in H; [|discriminate].
    destruct Hck as (a & Ha & Hs). rewrite Hs in Hok. apply Forall_app in Hok. destruct Hok as [_ Hok1].
    specialize (Hcv _ Hok1). destruct (decv d1) as [[x d2]|e]; cbn [dbind] in H; [|discriminate].
    destruct (Nat.eqb (length d2) (length (b :: data)) || map_has_key k acc); [discriminate|].
    destruct Hcv as (a2 & Ha2 & Hs2). rewrite Hs2 in Hok1. apply Forall_app in Hok1.
    destruct (IHfuel d2 (vsnoc acc (VCons k x)) items (is_chain_vsnoc _ _ Hc) (proj2 Hok1) H) as (v & Hv & Hev).
    exists (VCons (VCons k x) v). split.
    + rewrite Hv, vcat_vsnoc. reflexivity.
    + cbn [enc_entries]. rewrite Ha, Ha2, Hev. cbn [obind]. rewrite Hs, Hs2. reflexivity.
  Qed.
End MapCanon.

Lemma with_len_data_ok d used : with_len d = Some used -> bytes_ok used -> bytes_ok d.
Proof.
  unfold with_len. destruct (encode_varint _) as [h|]; [|discriminate]. cbn [obind]. intro Hu. injection Hu as <-.
  intro Hok. apply Forall_app in Hok. tauto.
Qed.

Lemma reads_collection (encs : val -> option (list N)) (loop : list N -> dres val) bs :
  (forall data v, bytes_ok data -> loop data = DOk v -> encs v = Some data) -> bytes_ok bs ->
  reads (fun v => obind (encs v) with_len) [] bs
    (dbind (split_collection bs) (fun '(data, rest) => dbind (loop data) (fun items => DOk (items, rest)))).
Proof.
  intros Hl Hok. apply reads_bind with (ea := with_len); [exact Hok|apply reads_split, Hok|].
  intros d ua r E Hua _. cbn. specialize (Hl d). destruct (loop d) as [v|]; [|exact I].
  apply reads_ret. rewrite (Hl v (with_len_data_ok _ _ E Hua) eq_refl). exact E.
Qed.

Lemma chain_tag t : forall d bs v r,
  wfP true t -> decode t (Some d) bs = DOk (v, r) -> exists p, v = VEnum d p.
Proof.
  ind_ty t; intros d0 bs v r W H; cbn [wfP] in W; try discriminate; try (destruct W as [W _]; discriminate);
    cbn [decode] in H.
  - destruct (d0 =? d); [|apply (IHt2 _ _ _ _ (proj2 (proj2 W)) H)].
    destruct (decode t1 None bs) as [[p r1]|]; [|discriminate]. injection H as <- _. eexists. reflexivity.
  - destruct (d0 <? m); [discriminate|].
    destruct (decode t None bs) as [[p r1]|]; [|discriminate]. injection H as <- _. eexists. reflexivity.
Qed.

Lemma decode_reads t : canonicalP t ->
  forall c, wfP c t -> forall disc bs, bytes_ok bs -> reads (encode t) [] bs (decode t disc bs).
Proof.
  ind_ty t; intros C c W disc bs Hok; cbn [canonicalP] in C; cbn [wfP] in W; cbn [decode].
  - (* TU *) apply reads_uint_bind; [exact Hok|]. intros a r Ha _. apply reads_ret. cbn [encode].
    rewrite (proj2 (N.ltb_lt _ _) Ha). reflexivity.
  - (* TBool *) apply reads_uint_bind; [exact Hok|]. intros a r _ _. cbn.
    destruct (N.eqb_spec a 0); [subst; apply reads_ret; reflexivity|].
    destruct (N.eqb_spec a 1); [subst; apply reads_ret; reflexivity|exact I].
  - (* TBytes *) apply reads_bind with (ea := with_len); [exact Hok|apply reads_split, Hok|].
    intros a ua r E _ _. apply reads_ret. exact E.
  - (* TArr *) destruct (take_n n bs) as [[h r']|] eqn:E; [|exact I].
    apply take_n_spec in E. destruct E as [-> L]. exists h. cbn [encode]. rewrite L, Nat.eqb_refl. split; reflexivity.
  - (* TVec *) destruct W as (_ & _ & W).
    apply (reads_collection (enc_items (encode t)) (fun data => vec_loop (decode t None) (length data) data VNil)); [|exact Hok].
    intros data v Hd L.
    destruct (vec_loop_canon (encode t) (decode t None) (fun bs0 => IHt C false W None bs0) _ _ _ _ is_chain_nil Hd L)
      as (v' & -> & Hev). exact Hev.
  - (* TOpt *) destruct W as (_ & W). apply reads_uint_bind; [exact Hok|]. intros a r _ Hr. cbn.
    destruct (N.eqb_spec a 0); [subst; apply reads_ret; reflexivity|].
    destruct (N.eqb_spec a 1); [subst|exact I].
    apply reads_bind with (ea := encode t); [exact Hr|apply (IHt C false W), Hr|].
    intros x ux r' Ex _ _. apply reads_ret. cbn [encode]. rewrite Ex. reflexivity.
  - (* TUnit *) apply reads_ret. reflexivity.
  - (* TPair *) destruct C as [C1 C2]. destruct W as (_ & W1 & W2).
    apply reads_bind with (ea := encode t1); [exact Hok|apply (IHt1 C1 false W1), Hok|].
    intros x ux r Ex _ Hr. apply reads_bind with (ea := encode t2); [exact Hr|apply (IHt2 C2 false W2), Hr|].
    intros y uy r' Ey _ _. apply reads_ret. cbn [encode]. rewrite Ex, Ey. reflexivity.
  - (* TEnum *) destruct W as (_ & W). apply reads_uint_bind; [exact Hok|].
    intros d r Hd Hr. pose proof (IHt C true W (Some d) r Hr) as R.
    destruct (decode t (Some d) r) as [[v r']|] eqn:D; [|exact I].
    destruct (chain_tag _ _ _ _ _ W D) as [p ->]. destruct R as (used & Hu & ->).
    exists used. cbn [encode]. rewrite (proj2 (N.ltb_lt _ _) Hd), Hu. split; reflexivity.
  - (* TCase *) destruct C as [C1 C2]. destruct W as (_ & W1 & W2). destruct disc as [d0|]; [|exact I].
    destruct (N.eqb_spec d0 d).
    + subst d0. apply reads_bind with (ea := encode t1); [exact Hok|apply (IHt1 C1 false W1), Hok|].
      intros p up r Ep _ _. apply reads_ret. cbn [encode]. rewrite N.eqb_refl. exact Ep.
    + pose proof (IHt2 C2 true W2 (Some d0) bs Hok) as R.
      destruct (decode t2 (Some d0) bs) as [[v r]|] eqn:D; [|exact I].
      destruct (chain_tag _ _ _ _ _ W2 D) as [p ->]. cbn [reads encode].
      destruct (N.eqb_spec d0 d); [contradiction|exact R].
  - (* TNoCase *) destruct disc; exact I.
  - (* TLeafIndex *) apply reads_uint_bind; [exact Hok|]. intros a r Ha _. cbn.
    destruct (a <=? max_leaf_index); [|exact I]. apply reads_ret. cbn [encode].
    rewrite (proj2 (N.ltb_lt a (256 ^ 4)) Ha). reflexivity.
  - (* TMap, ordered *) destruct C as (_ & C1 & C2). destruct W as (_ & _ & W1 & W2).
    apply (reads_collection (enc_entries (encode t1) (encode t2))
             (fun data => map_loop (decode t1 None) (decode t2 None) (length data) data VNil)); [|exact Hok].
    intros data v Hd L.
    destruct (map_loop_canon (encode t1) (encode t2) (decode t1 None) (decode t2 None)
                (fun bs0 => IHt1 C1 false W1 None bs0) (fun bs0 => IHt2 C2 false W2 None bs0)
                _ _ _ _ is_chain_nil Hd L) as (v' & -> & Hev). exact Hev.
  - (* TDefault *) destruct W as (_ & W). destruct disc as [d0|]; [|exact I].
    destruct (N.ltb_spec d0 m); [exact I|].
    apply reads_bind with (ea := encode t); [exact Hok|apply (IHt C false W), Hok|].
    intros p up r Ep _ _. apply reads_ret. cbn [encode]. destruct (N.leb_spec m d0); [exact Ep|lia].
  - (* TDep *) destruct C as [C1 C2]. destruct W as (_ & W1 & W2).
    apply reads_bind with (ea := encode t); [exact Hok|apply (IHt C1 false W1), Hok|].
    intros x ux r Ex _ Hr. apply reads_bind with (ea := encode (f x)); [exact Hr|apply (IHf x (C2 x) false (W2 x)), Hr|].
    intros y uy r' Ey _ _. apply reads_ret. cbn [encode]. rewrite Ex, Ey. reflexivity.
Qed.

(* a decoded value of a canonical type re-encodes to exactly the bytes that were consumed *)
Theorem decode_canonical t bs v r :
  wf t -> canonicalP t -> bytes_ok bs -> decode t None bs = DOk (v, r) ->
  exists used, encode t v = Some used /\ bs = used ++ r.
Proof. intros W C Hok H. pose proof (decode_reads t C false W None bs Hok) as R. rewrite H in R. exact R. Qed.

Theorem unique_decoding t v1 v2 b1 b2 r1 r2 :
  wf t -> vwf t v1 = true -> vwf t v2 = true ->
  encode t v1 = Some b1 -> encode t v2 = Some b2 -> b1 ++ r1 = b2 ++ r2 -> v1 = v2 /\ r1 = r2.
Proof.
  intros W H1 H2 E1 E2 Heq.
  pose proof (roundtrip t v1 b1 r1 W H1 E1) as D1. pose proof (roundtrip t v2 b2 r2 W H2 E2) as D2.
  rewrite Heq in D1. rewrite D1 in D2. injection D2 as -> ->. split; reflexivity.
Qed.

(* the conjunctions of the boolean checks associate to the left, so they are peeled off from the right *)
Lemma wfb_wfP t : forall c, wfb c t = true -> wfP c t.
Proof.
  ind_ty t; intros c H; cbn [wfb] in H; cbn [wfP]; try discriminate;
    repeat (apply andb_prop in H; destruct H as [H ?]); try apply negb_true_iff in H; repeat split; auto.
Qed.

Lemma canonicalb_canonicalP t : canonicalb t = true -> canonicalP t.
Proof.
  ind_ty t; intro H; cbn [canonicalb] in H; cbn [canonicalP]; try discriminate;
    repeat (apply andb_prop in H; destruct H as [H ?]); repeat split; auto.
Qed.
