(* C11: the pending-commit state machine of Model/Pending.v. *)
From Coq Require Import NArith List Bool Lia.
From MlsV Require Import Pending.
Import ListNotations.
Local Open Scope N_scope.

Lemma list_eqb_eq a : forall b, list_eqb a b = true <-> a = b.
Proof.
  induction a as [|x a IH]; intros [|y b]; cbn [list_eqb]; split; intro H; try reflexivity; try discriminate.
  - apply andb_true_iff in H. destruct H as [H1 H2]. apply N.eqb_eq in H1. apply IH in H2. congruence.
  - inversion H; subst. rewrite N.eqb_refl. cbn. apply IH. reflexivity.
Qed.

(* building a commit never changes the applied history; it only records the pending commit *)
Theorem build_keeps_history s c d r : hist (snd (step s (OBuild c d r))) = hist s.
Proof. cbn [step]. destruct (pend s); [reflexivity|]. destruct (frozen s); [reflexivity|]. destruct d; reflexivity. Qed.

(* never two pending commits: with one pending, building is refused and nothing changes *)
Theorem single_pending s c d r p : pend s = Some p -> step s (OBuild c d r) = (RExistingPending, s).
Proof. intro E. cbn [step]. rewrite E. reflexivity. Qed.

(* clear_pending_commit: the history stays and a new commit can be built *)
Theorem clear_restores s c r : frozen s = false ->
  fst (step (snd (step s OClear)) (OBuild c false r)) = ROk /\ hist (snd (step s OClear)) = hist s.
Proof. intro F. cbn [step snd pend frozen hist]. rewrite F. split; reflexivity. Qed.

(* all an operation can do to a member; SameState is every refusal, and a detached build *)
Inductive step_result (s : mstate) : mres -> mstate -> Prop :=
| SameState r : step_result s r s
| NewPending c : step_result s ROk {| hist := hist s; pend := Some (c, hist s); frozen := frozen s |}
| Cleared : step_result s ROk {| hist := hist s; pend := None; frozen := frozen s |}
| Advanced c r : step_result s ROk (advance s c r).

Lemma step_cases s o : step_result s (fst (step s o)) (snd (step s o)).
Proof.
  destruct o as [c d r| | |c b r|c b r]; cbn [step].
  - (* [rewrite <- F]: NewPending wants the record to read [frozen := frozen s] again *)
    destruct (pend s); [|destruct (frozen s) eqn:F; [|destruct d; [|rewrite <- F]]]; constructor.
  - constructor.
  - destruct (pend s) as [[c b]|]; [destruct (_ =? _)|]; constructor.
  - destruct (_ =? _); constructor.
  - destruct (pend s) as [[pc pb]|]; [destruct (pc =? c); [destruct (_ =? _); constructor|]|];
      (destruct (negb _); [|destruct (negb _); [|destruct (frozen s)]]; constructor).
Qed.

(* every operation leaves the history alone or appends exactly one commit *)
Theorem step_extends s o : hist (snd (step s o)) = hist s \/ exists c, hist (snd (step s o)) = hist s ++ [c].
Proof. destruct (step_cases s o) as [r|c| |c r]; [left|left|left|right; exists c]; reflexivity. Qed.

Corollary epoch_step s o : epoch_of (snd (step s o)) = epoch_of s \/ epoch_of (snd (step s o)) = epoch_of s + 1.
Proof.
  unfold epoch_of. destruct (step_extends s o) as [E|[c E]]; rewrite E; [left; reflexivity|right].
  rewrite app_length. cbn [length]. lia.
Qed.

(* an error leaves the member exactly as it was *)
Theorem error_keeps_state s o : fst (step s o) <> ROk -> snd (step s o) = s.
Proof. destruct (step_cases s o); congruence. Qed.

(* the pending commit is always one built on the current history *)
Theorem pendinv_step s o : PendInv s -> PendInv (snd (step s o)).
Proof.
  intro I. destruct (step_cases s o) as [r|c| |c r]; [exact I| | |]; intros c0 b0 H; [|discriminate|discriminate].
  injection H as _ <-. reflexivity.
Qed.

Theorem pendinv_reachable ops : forall s, PendInv s -> PendInv (run s ops).
Proof. induction ops as [|o r IH]; intros s I; cbn [run fold_left]; [exact I|]. apply IH. apply pendinv_step. exact I. Qed.

Lemma pendinv_init : PendInv init_state.
Proof. intros c b H. discriminate. Qed.

(* applying the pending commit gives exactly what a member on the same history gets by receiving
   it, both succeed, and the committer receiving its own commit back ends where applying ends *)
Theorem apply_equals_receive s1 s2 c b :
  PendInv s1 -> pend s1 = Some (c, b) -> hist s2 = hist s1 -> pend s2 = None -> frozen s2 = false ->
  hist (snd (step s1 OApplyPending)) = hist (snd (step s2 (OReceive c b false)))
  /\ fst (step s1 OApplyPending) = ROk /\ fst (step s2 (OReceive c b false)) = ROk
  /\ hist (snd (step s1 (OReceive c b false))) = hist (snd (step s1 OApplyPending)).
Proof.
  intros I P H2 P2 F2. pose proof (I c b P) as Eb. subst b. cbn [step]. rewrite P, P2, F2.
  unfold epoch_of. rewrite H2, !N.eqb_refl. cbn [negb].
  assert (list_eqb (hist s1) (hist s1) = true) as -> by (apply list_eqb_eq; reflexivity).
  cbn [negb fst snd advance hist]. rewrite H2. repeat split; reflexivity.
Qed.

(* somebody else's commit for the current epoch discards the pending one *)
Theorem foreign_commit_discards_pending s c pc pb r :
  pend s = Some (pc, pb) -> pc <> c -> fst (step s (OReceive c (hist s) r)) = ROk ->
  pend (snd (step s (OReceive c (hist s) r))) = None.
Proof.
  intros P Ne. cbn [step]. rewrite P. destruct (N.eqb_spec pc c); [contradiction|].
  destruct (negb _); [intro H; discriminate|]. destruct (negb _); [intro H; discriminate|].
  destruct (frozen s); [intro H; discriminate|]. reflexivity.
Qed.

(* a commit is only accepted in the epoch it was made for *)
Theorem commit_only_for_current_epoch s c b r :
  fst (step s (OReceive c b r)) = ROk -> N.of_nat (length b) = epoch_of s \/ exists pb, pend s = Some (c, pb).
Proof.
  cbn [step]. destruct (pend s) as [[pc pb]|].
  - destruct (N.eqb_spec pc c) as [->|Ne]; [intros _; right; exists pb; reflexivity|].
    destruct (N.eqb_spec (N.of_nat (length b)) (epoch_of s)); cbn [negb]; [intros _; left; assumption|discriminate].
  - destruct (N.eqb_spec (N.of_nat (length b)) (epoch_of s)); cbn [negb]; [intros _; left; assumption|discriminate].
Qed.

(* a stale detached commit (made in an earlier epoch) cannot be applied *)
Theorem stale_detached_rejected s c b r :
  N.of_nat (length b) < epoch_of s -> step s (OApplyDetached c b r) = (RInvalidEpoch, s).
Proof. intro L. cbn [step]. destruct (N.eqb_spec (N.of_nat (length b)) (epoch_of s)); [lia|reflexivity]. Qed.

(* ... and a detached commit made on a prefix of the member's history is applied only on that very history *)
Theorem detached_no_fork s c b r rest :
  hist s = b ++ rest -> fst (step s (OApplyDetached c b r)) = ROk -> b = hist s.
Proof.
  intros H. cbn [step]. unfold epoch_of. rewrite H, app_length.
  destruct (N.eqb_spec (N.of_nat (length b)) (N.of_nat (length b + length rest))) as [E|]; [|discriminate].
  intros _. destruct rest as [|x rest]; [rewrite app_nil_r; reflexivity|]. cbn [length] in E. lia.
Qed.

(* once a re-init has been committed the group refuses further commits *)
Theorem frozen_refuses s c d r b :
  frozen s = true -> pend s = None ->
  fst (step s (OBuild c d r)) = RUsedAfterReInit /\ fst (step s (OReceive c b r)) <> ROk.
Proof.
  intros F P. cbn [step]. rewrite P, F. split; [reflexivity|].
  destruct (negb _); [discriminate|]. destruct (negb _); discriminate.
Qed.
