(* Gen/VarIntGen.v (varint.rs translated: bit-length thresholds, marker bits, shift-and-or fold)
   computes encode_varint / decode_varint / varint_len of Model/Codec.v. *)
From Coq Require Import NArith List Lia.
From MlsV Require Import Codec CodecPrim BitsN VarIntGen.
Import ListNotations.
Local Open Scope N_scope.

Lemma gen_varint_max_is_model : gen_varint_max = varint_max.
Proof. reflexivity. Qed.

Lemma size_le_iff n k : N.size n <= k <-> n < 2 ^ k.
Proof.
  destruct n as [|p]; [split; intros _; [apply N.neq_0_lt_0, N.pow_nonzero; discriminate|apply N.le_0_l]|].
  rewrite N.size_log2, N.le_succ_l by discriminate. symmetry. apply N.log2_lt_pow2. reflexivity.
Qed.

Lemma size_leb n k : (N.size n <=? k) = (n <? 2 ^ k).
Proof. apply Bool.eq_iff_eq_true. rewrite N.leb_le, N.ltb_lt. apply size_le_iff. Qed.

Lemma size_gtb n k : (N.succ k <=? N.size n) = negb (n <? 2 ^ k).
Proof. rewrite <- size_leb, N.leb_antisym. f_equal. apply Bool.eq_iff_eq_true. rewrite N.ltb_lt, N.leb_le. apply N.lt_succ_r. Qed.

(* the bit-length tests of count_bytes_to_encode_int as comparisons with 2^6, 2^14, 2^30 *)
Lemma gen_count_bytes_thresholds n :
  gen_count_bytes n = if n <? 64 then Some 1 else if n <? 16384 then Some 2 else if n <? 2 ^ 30 then Some 4 else None.
Proof.
  unfold gen_count_bytes. cbv zeta. change 7 with (N.succ 6). change 15 with (N.succ 14).
  rewrite (proj2 (N.leb_le 0 _) (N.le_0_l _)), !size_leb, !size_gtb.
  change (2 ^ 6) with 64. change (2 ^ 14) with 16384.
  destruct (n <? 64); [reflexivity|]. destruct (n <? 16384); reflexivity.
Qed.

Theorem gen_count_bytes_is_model n : n <= varint_max -> gen_count_bytes n = Some (varint_len n).
Proof.
  intro Hn. rewrite gen_count_bytes_thresholds. unfold varint_len.
  rewrite (proj2 (N.ltb_lt n (2 ^ 30)) (proj2 (N.lt_succ_r n varint_max) Hn)).
  destruct (n <? 64); [reflexivity|]. destruct (n <? 16384); reflexivity.
Qed.

(* the panic of count_bytes_to_encode_int is exactly "needs more than 30 bits" *)
Theorem gen_count_bytes_panics_iff n : gen_count_bytes n = None <-> varint_max < n.
Proof.
  rewrite gen_count_bytes_thresholds. rewrite <- N.le_succ_l. change (N.succ varint_max) with (2 ^ 30).
  destruct (N.ltb_spec n (2 ^ 30)) as [H|H].
  - split; [|intro H'; destruct (N.lt_irrefl _ (N.lt_le_trans _ _ _ H H'))].
    destruct (n <? 64); [discriminate|]. destruct (n <? 16384); discriminate.
  - split; [intros _; exact H|intros _].
    rewrite (proj2 (N.ltb_ge n 64)), (proj2 (N.ltb_ge n 16384)); [reflexivity| |];
      (eapply N.le_trans; [|exact H]); discriminate.
Qed.

Theorem gen_try_from_is_model n : gen_try_from n = if n <=? varint_max then Some n else None.
Proof. reflexivity. Qed.

(* marker bits: OR into a byte whose marked bits are clear is addition *)
Lemma lor_marker a k : a < 2 ^ k -> N.lor a (2 ^ k) = 2 ^ k + a.
Proof.
  intro Ha. rewrite N.lor_comm. rewrite <- (N.shiftl_1_l k). rewrite <- add_shiftl_lor by exact Ha. reflexivity.
Qed.

Theorem gen_encode_varint_is_model n : gen_encode_varint n = encode_varint n.
Proof.
  unfold gen_encode_varint, encode_varint. cbv zeta.
  destruct (N.leb_spec n varint_max) as [Hn|Hn].
  - rewrite gen_count_bytes_is_model by exact Hn.
    unfold varint_max in Hn. change (2 ^ 30 - 1) with 1073741823 in Hn.
    unfold varint_len. destruct (N.ltb_spec n 64) as [H1|H1].
    + cbn [be_bytes skipn]. change (256 ^ N.of_nat 0) with 1. rewrite N.div_1_r, N.mod_small by lia. reflexivity.
    + destruct (N.ltb_spec n 16384) as [H2|H2].
      * cbn [be_bytes skipn or_at]. change (256 ^ N.of_nat 1) with 256. change (256 ^ N.of_nat 0) with 1.
        rewrite N.div_1_r. rewrite (N.mod_small (n / 256) 256) by (apply N.div_lt_upper_bound; lia).
        change 64 with (2 ^ 6) at 1. rewrite lor_marker by (change (2 ^ 6) with 64; apply N.div_lt_upper_bound; lia).
        reflexivity.
      * cbn [be_bytes skipn or_at]. change (256 ^ N.of_nat 3) with 16777216. change (256 ^ N.of_nat 2) with 65536.
        change (256 ^ N.of_nat 1) with 256. change (256 ^ N.of_nat 0) with 1.
        rewrite N.div_1_r. rewrite (N.mod_small (n / 16777216) 256) by (apply N.div_lt_upper_bound; lia).
        change 128 with (2 ^ 7) at 1. rewrite lor_marker by (change (2 ^ 7) with 128; apply N.div_lt_upper_bound; lia).
        reflexivity.
  - assert (Hp : gen_count_bytes n = None) by (apply gen_count_bytes_panics_iff; exact Hn).
    rewrite Hp. reflexivity.
Qed.

Lemma gen_fold_is_be_value more : bytes_ok more -> forall acc, gen_fold more acc = be_value more acc.
Proof.
  induction 1 as [|b r Hb Hr IH]; intro acc; cbn [gen_fold be_value]; [reflexivity|].
  rewrite IH. f_equal. rewrite <- add_shiftl_lor by (change (2 ^ 8) with 256; exact Hb).
  rewrite N.shiftl_mul_pow2. reflexivity.
Qed.

Theorem gen_decode_varint_is_model bs : bytes_ok bs -> gen_decode_varint bs = decode_varint bs.
Proof.
  intro Hok. unfold gen_decode_varint, decode_varint. destruct bs as [|first r]; [reflexivity|].
  inversion Hok as [|? ? Hf Hr]; subst. cbv zeta.
  rewrite N.shiftr_div_pow2. change (2 ^ 6) with 64.
  destruct (N.ltb_spec (first / 64) 3) as [Hp|Hp]; [|reflexivity].
  rewrite N.shiftl_1_l.
  change 63 with (N.ones 6). rewrite N.land_ones. change (2 ^ 6) with 64.
  destruct (take_n (N.to_nat (2 ^ (first / 64)) - 1) r) as [[more rest]|] eqn:T; [|reflexivity].
  apply take_n_spec in T. destruct T as [-> Hl]. apply Forall_app in Hr. destruct Hr as [Hmo _].
  rewrite gen_fold_is_be_value by exact Hmo.
  pose proof (varint_value_bound first more Hp Hmo Hl) as Hn.
  rewrite gen_count_bytes_is_model by exact Hn.
  rewrite N2Nat.id. reflexivity.
Qed.
