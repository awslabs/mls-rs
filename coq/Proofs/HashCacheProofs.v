(* The incremental tree-hash cache equals the from-scratch tree hash.

   tree_hash (Model/HashCache.v, the queue algorithm of tree_kem/tree_hash.rs) run over a cache whose
   entries outside the direct paths of the listed leaves are right yields a cache that is right everywhere
   and does not panic or run out of fuel: the FIFO queue visits the ancestors level by level, so a parent
   is (re)computed after both of its children.  update_hashes then keeps the cache right through any edit
   of the tree that is confined to the listed leaves and their ancestors, whether the tree grows, shrinks
   or keeps its size. *)
From Coq Require Import NArith Arith List Lia.
From MlsV Require Import Res TreeMathGen TreeMathProofs Tree TreeProofs Priv PrivProofs HashCache.
Import ListNotations.
Local Open Scope N_scope.

Lemma left_child k l : (k < 30)%nat ->
  left_unchecked (lvl_node (N.of_nat (S k)) l) = Ok (node (N.of_nat k) (2 * (l / 2 ^ N.of_nat (S k)))).
Proof. intro Hk. unfold lvl_node. rewrite Nat2N.inj_succ, <- N.add_1_r. apply left_ok. lia. Qed.

Lemma right_child k l : (k < 30)%nat ->
  right_unchecked (lvl_node (N.of_nat (S k)) l) = Ok (node (N.of_nat k) (2 * (l / 2 ^ N.of_nat (S k)) + 1)).
Proof. intro Hk. unfold lvl_node. rewrite Nat2N.inj_succ, <- N.add_1_r. apply right_ok. lia. Qed.

Lemma hset_at_spec v : forall c i, (i < length c)%nat ->
  exists c', hset_at c i v = Ok c' /\ length c' = length c /\ nth_error c' i = Some v /\
             forall m, m <> i -> nth_error c' m = nth_error c m.
Proof.
  induction c as [|h r IH]; intros i L; cbn [length] in L; [lia|].
  destruct i as [|i]; cbn [hset_at].
  - exists (v :: r). split; [reflexivity|]. split; [reflexivity|]. split; [reflexivity|].
    intros m Nm. destruct m; [contradiction|reflexivity].
  - destruct (IH i ltac:(lia)) as (r' & E & Ln & Gi & Go). rewrite E. cbn [bind].
    exists (h :: r'). split; [reflexivity|]. split; [cbn [length]; lia|]. split; [exact Gi|].
    intros m Nm. destruct m; [reflexivity|]. cbn [nth_error]. apply Go. lia.
Qed.

Lemma hset_spec c n v : n < N.of_nat (length c) ->
  exists c', hset c n v = Ok c' /\ length c' = length c /\ hidx c' n = Ok v /\
             forall m, m <> n -> hidx c' m = hidx c m.
Proof.
  intro L. destruct (hset_at_spec v c (N.to_nat n) ltac:(lia)) as (c' & E & Ln & Gi & Go).
  exists c'. split; [exact E|]. split; [exact Ln|]. split; [unfold hidx; rewrite Gi; reflexivity|].
  intros m Nm. unfold hidx. rewrite Go by lia. reflexivity.
Qed.

Lemma hresize_length c n : length (hresize c n) = N.to_nat n.
Proof. unfold hresize. rewrite app_length, firstn_length, repeat_length. lia. Qed.

Lemma hresize_idx c n i : i < n -> i < N.of_nat (length c) -> hidx (hresize c n) i = hidx c i.
Proof.
  intros Hi Hc. unfold hidx, hresize. rewrite nth_error_app1 by (rewrite firstn_length; lia).
  rewrite nth_error_firstn_lt by lia. reflexivity.
Qed.

Lemma filter_length_le {A} (f : A -> bool) l : (length (filter f l) <= length l)%nat.
Proof. induction l as [|x l IH]; [apply le_n|]. cbn [filter]. destruct (f x); cbn [length]; lia. Qed.

Lemma queue_pass_nil pay fuel t flt nl c : queue_pass pay fuel t flt nl [] c = Ok c.
Proof. destruct fuel; reflexivity. Qed.

Lemma thash_ext pay pay' t t' flt (P : nat -> N -> Prop) :
  (forall k j, P (S k) j -> P k (2 * j) /\ P k (2 * j + 1)) ->
  (forall l, P 0%nat l -> leaf_of pay' t' l = leaf_of pay t l) ->
  (forall k j, P (S k) j -> parent_of pay' t' (node (N.of_nat (S k)) j) = parent_of pay t (node (N.of_nat (S k)) j)) ->
  forall k j, P k j -> thash pay' t' flt k j = thash pay t flt k j.
Proof.
  intros Hc Hl Hp. induction k as [|k IH]; intros j Pj; cbn [thash].
  - rewrite (Hl j Pj). reflexivity.
  - destruct (Hc k j Pj) as [Pa Pb]. rewrite (Hp k j Pj), (IH _ Pa), (IH _ Pb). reflexivity.
Qed.

Section Core.
  Variable pay : N -> N.
  Variables (t : tree) (flt : list N) (D : nat).
  Let nl := 2 ^ N.of_nat D.

  Definition inr (k : nat) (j : N) : Prop := (k <= D)%nat /\ j < 2 ^ N.of_nat (D - k).
  Definition good (c : hcache) (k : nat) (j : N) : Prop :=
    hidx c (node (N.of_nat k) j) = Ok (thash pay t flt k j).
  Definition dirty (ls : list N) (k : nat) (j : N) : Prop := exists l, In l ls /\ l / 2 ^ N.of_nat k = j.
  Definition Valid (c : hcache) : Prop :=
    N.of_nat (length c) = 2 * nl - 1 /\ forall k j, inr k j -> good c k j.

  Lemma dirty_iff ls k j : dirty ls k j <-> In j (map (fun l => l / 2 ^ N.of_nat k) ls).
  Proof. unfold dirty. rewrite in_map_iff. split; intros (l & A & B); exists l; split; assumption. Qed.

  Lemma dirty_app ls ls' k j : dirty (ls ++ ls') k j <-> dirty ls k j \/ dirty ls' k j.
  Proof. rewrite !dirty_iff, map_app. apply in_app_iff. Qed.

  Lemma dirty_dec ls k j : dirty ls k j \/ ~ dirty ls k j.
  Proof.
    destruct (in_dec N.eq_dec j (map (fun l => l / 2 ^ N.of_nat k) ls)); [left|right]; rewrite dirty_iff; assumption.
  Qed.

  Lemma inr_iff k j : inr k j <-> (j + 1) * 2 ^ N.of_nat k <= nl.
  Proof.
    pose proof (pow2_pos (N.of_nat k)) as Pk. unfold inr, nl. destruct (le_lt_dec k D) as [Hk|Hk].
    - replace (N.of_nat D) with (N.of_nat (D - k) + N.of_nat k) by lia. rewrite N.pow_add_r.
      rewrite <- N.mul_le_mono_pos_r by exact Pk. lia.
    - pose proof (pow2_lt_mono (N.of_nat D) (N.of_nat k) ltac:(lia)). split; [lia|nia].
  Qed.

  Lemma inr_0 l : inr 0 l <-> l < nl.
  Proof. unfold inr. rewrite Nat.sub_0_r. split; [intros [_ H]; exact H|intro H; split; [apply Nat.le_0_l|exact H]]. Qed.

  Lemma inr_bound k j : inr k j -> node (N.of_nat k) j < 2 * nl - 1.
  Proof. intro I. apply inr_iff in I. unfold node. pose proof (pow2_pos (N.of_nat k)). lia. Qed.

  Lemma inr_children k j : inr (S k) j -> inr k (2 * j) /\ inr k (2 * j + 1).
  Proof. rewrite !inr_iff, pow2_S. lia. Qed.

  Definition after_pass (c c' : hcache) (k : nat) (ls : list N) : Prop :=
    N.of_nat (length c') = 2 * nl - 1 /\ (forall k' j, good c k' j -> good c' k' j) /\
    forall l, In l ls -> good c' k (l / 2 ^ N.of_nat k).

  Lemma after_pass_nil c k : N.of_nat (length c) = 2 * nl - 1 -> after_pass c c k [].
  Proof. intro Ln. split; [exact Ln|]. split; [auto|intros l []]. Qed.

  Lemma after_pass_cons c c1 c' k l ls : after_pass c c1 k [l] -> after_pass c1 c' k ls -> after_pass c c' k (l :: ls).
  Proof.
    intros (_ & Keep1 & New1) (Ln & Keep & New). split; [exact Ln|]. split.
    - intros k' j G. apply Keep, Keep1, G.
    - intros l' [<-|I]; [apply Keep, New1; left; reflexivity|apply New, I].
  Qed.

  (* the invariant between two passes *)
  Definition right_below (ls : list N) (k : nat) (c : hcache) : Prop :=
    N.of_nat (length c) = 2 * nl - 1 /\
    forall k' j, inr k' j -> (k' < k)%nat \/ ~ dirty ls k' j -> good c k' j.

  Lemma right_below_S ls k c c' : right_below ls k c -> after_pass c c' k ls -> right_below ls (S k) c'.
  Proof.
    intros [_ Lo] (Ln & Keep & New). split; [exact Ln|]. intros k' j I H.
    destruct (Nat.eq_dec k' k) as [->|Ne].
    - destruct (dirty_dec ls k j) as [(l & Il & <-)|Nd]; [apply New, Il|apply Keep, Lo; [exact I|right; exact Nd]].
    - apply Keep, Lo; [exact I|]. destruct H; [left; lia|right; assumption].
  Qed.

  (* the u32 index arithmetic of the code does not overflow *)
  Hypothesis HD : (D <= 30)%nat.

  Lemma inr_lvl k l : (k <= D)%nat -> l < nl -> inr k (l / 2 ^ N.of_nat k).
  Proof.
    intros Hk Hl. split; [exact Hk|]. apply N.div_lt_upper_bound; [apply N.pow_nonzero; lia|].
    rewrite <- N.pow_add_r. replace (N.of_nat k + N.of_nat (D - k)) with (N.of_nat D) by lia. exact Hl.
  Qed.

  Lemma inr_sib i l : (i < D)%nat -> l < nl -> inr i (sib (l / 2 ^ N.of_nat i)).
  Proof.
    intros Li Hl. destruct (inr_children i _ (inr_lvl (S i) l Li Hl)) as [Ia Ib]. rewrite <- div_pow2_S in Ia, Ib.
    destruct (sib_cases (l / 2 ^ N.of_nat i)) as [[_ ->]|[_ ->]]; assumption.
  Qed.

  Lemma set_good c k l : N.of_nat (length c) = 2 * nl - 1 -> (k <= D)%nat -> l < nl ->
    exists c', hset c (lvl_node (N.of_nat k) l) (thash pay t flt k (l / 2 ^ N.of_nat k)) = Ok c' /\ after_pass c c' k [l].
  Proof.
    intros Ln Hk Hl. pose proof (inr_lvl k l Hk Hl) as I.
    destruct (hset_spec c (lvl_node (N.of_nat k) l) (thash pay t flt k (l / 2 ^ N.of_nat k))) as (c' & E & Ln' & Gi & Go).
    { rewrite Ln. apply inr_bound. exact I. }
    exists c'. split; [exact E|]. split; [rewrite Ln'; exact Ln|]. split; [|intros l' [<-|[]]; exact Gi].
    intros k' j' G. unfold good. destruct (N.eq_dec (node (N.of_nat k') j') (lvl_node (N.of_nat k) l)) as [En|Ne].
    - rewrite En, Gi. apply node_inj in En. destruct En as [Ek ->]. apply Nat2N.inj in Ek. subst k'. reflexivity.
    - rewrite Go by exact Ne. exact G.
  Qed.

  Lemma parent_of_lvl k l : (k < D)%nat -> l < nl ->
    parent_sibling (lvl_node (N.of_nat k) l) nl =
    Ok (Some (mkParentSibling (lvl_node (N.of_nat (S k)) l) (node (N.of_nat k) (sib (l / 2 ^ N.of_nat k))))).
  Proof.
    intros Hk Hl. destruct (inr_lvl k l (Nat.lt_le_incl _ _ Hk) Hl) as [_ B]. rewrite Nat2N.inj_sub in B.
    unfold lvl_node. rewrite <- div_pow2_S, Nat2N.inj_succ, <- N.add_1_r. apply parent_sibling_ok; [lia|lia|exact B].
  Qed.

  Lemma parent_of_top l : l < nl -> parent_sibling (lvl_node (N.of_nat D) l) nl = Ok None.
  Proof.
    intro Hl. unfold lvl_node. rewrite N.div_small by exact Hl. apply parent_sibling_root. lia.
  Qed.

  (* what a pass over the level-k ancestors of ls leaves in the queue *)
  Definition pushed (k : nat) (ls : list N) : list N :=
    if (k <? D)%nat then map (lvl_node (N.of_nat (S k))) ls else [].

  Lemma pushed_nil k : pushed k [] = [].
  Proof. unfold pushed. destruct (k <? D)%nat; reflexivity. Qed.

  Lemma pushed_app k ls ls' : pushed k (ls ++ ls') = pushed k ls ++ pushed k ls'.
  Proof. unfold pushed. destruct (k <? D)%nat; [apply map_app|reflexivity]. Qed.

  Lemma push_parent_lvl q k l : (k <= D)%nat -> l < nl ->
    push_parent q (lvl_node (N.of_nat k) l) nl = Ok (q ++ pushed k [l]).
  Proof.
    intros Hk Hl. unfold push_parent, pushed. destruct (Nat.ltb_spec k D) as [Lt|Ge].
    - rewrite parent_of_lvl by assumption. reflexivity.
    - replace k with D by lia. rewrite parent_of_top by exact Hl. cbn [bind ret]. rewrite app_nil_r. reflexivity.
  Qed.

  Definition keep (ls : list N) : list N := filter (fun l => l <? nl) ls.

  Lemma keep_lt ls l : In l (keep ls) -> l < nl.
  Proof. intro I. apply filter_In in I. destruct I as [_ E]. apply N.ltb_lt. exact E. Qed.

  Lemma leaf_pass_ok : forall ls c q, N.of_nat (length c) = 2 * nl - 1 ->
    exists c', leaf_pass pay t flt nl ls c q = Ok (c', q ++ pushed 0 (keep ls)) /\ after_pass c c' 0 (keep ls).
  Proof.
    induction ls as [|l ls IH]; intros c q Ln.
    - exists c. change (keep []) with (@nil N). rewrite pushed_nil, app_nil_r. split; [reflexivity|apply after_pass_nil, Ln].
    - cbn [leaf_pass]. change (keep (l :: ls)) with (if l <? nl then l :: keep ls else keep ls).
      destruct (N.ltb_spec l nl) as [Hl|_]; [|apply IH; exact Ln].
      destruct (set_good c 0 l Ln (Nat.le_0_l D) Hl) as (c1 & E1 & P1).
      rewrite (N.div_1_r l : l / 2 ^ N.of_nat 0 = l) in E1. cbn [thash] in E1.
      replace (2 * l) with (lvl_node (N.of_nat 0) l) by apply lvl_node_0. rewrite E1. cbn [bind].
      rewrite push_parent_lvl by (lia || exact Hl). cbn [bind].
      destruct (IH c1 (q ++ pushed 0 [l]) (proj1 P1)) as (c' & E & P).
      exists c'. split; [rewrite E, <- app_assoc, <- pushed_app; reflexivity|exact (after_pass_cons _ _ _ _ _ _ P1 P)].
  Qed.

  Lemma queue_step k l fuel q c : (k < D)%nat -> l < nl -> N.of_nat (length c) = 2 * nl - 1 ->
    (forall j, inr k j -> good c k j) ->
    exists c', queue_pass pay (S fuel) t flt nl (lvl_node (N.of_nat (S k)) l :: q) c =
               queue_pass pay fuel t flt nl (q ++ pushed (S k) [l]) c' /\ after_pass c c' (S k) [l].
  Proof.
    intros Hk Hl Ln Lo. destruct (set_good c (S k) l Ln Hk Hl) as (c' & E & P). exists c'. split; [|exact P].
    destruct (inr_children k _ (inr_lvl (S k) l Hk Hl)) as [Ia Ib].
    cbn [queue_pass]. rewrite left_child, right_child by lia. cbn [bind]. rewrite (Lo _ Ia), (Lo _ Ib). cbn [bind].
    cbn [thash] in E. fold (lvl_node (N.of_nat (S k)) l) in E. rewrite E. cbn [bind].
    rewrite push_parent_lvl by assumption. reflexivity.
  Qed.

  Lemma level_pass k fuel : (k < D)%nat -> forall ls c q,
    (forall l, In l ls -> l < nl) -> N.of_nat (length c) = 2 * nl - 1 -> (forall j, inr k j -> good c k j) ->
    exists c', queue_pass pay (length ls + fuel) t flt nl (map (lvl_node (N.of_nat (S k))) ls ++ q) c =
               queue_pass pay fuel t flt nl (q ++ pushed (S k) ls) c' /\ after_pass c c' (S k) ls.
  Proof.
    intro Hk. induction ls as [|l s IH]; intros c q Hls Ln Lo.
    - exists c. rewrite pushed_nil, app_nil_r. split; [reflexivity|apply after_pass_nil, Ln].
    - destruct (queue_step k l (length s + fuel) (map (lvl_node (N.of_nat (S k))) s ++ q) c Hk
                  (Hls l (or_introl eq_refl)) Ln Lo) as (c1 & E1 & P1).
      destruct (IH c1 (q ++ pushed (S k) [l])) as (c' & E & P);
        [intros l' I'; apply Hls; right; exact I'|exact (proj1 P1)|intros j Ij; apply P1, Lo, Ij|].
      exists c'. split; [|exact (after_pass_cons _ _ _ _ _ _ P1 P)].
      cbn [length map app Nat.add]. rewrite E1, <- app_assoc, E, <- app_assoc, <- pushed_app. reflexivity.
  Qed.

  (* n levels are left, each takes one step per listed leaf *)
  Theorem queue_ok ls fuel : (forall l, In l ls -> l < nl) -> forall n k c, (k + n = D)%nat -> right_below ls (S k) c ->
    exists c', queue_pass pay (n * length ls + fuel) t flt nl (pushed k ls) c = Ok c' /\ Valid c'.
  Proof.
    intro Hls. induction n as [|n IH]; intros k c Hk U; unfold pushed.
    - rewrite (proj2 (Nat.ltb_ge k D)) by lia. exists c. split; [apply queue_pass_nil|]. split; [apply U|].
      intros k' j I. apply U; [exact I|left; destruct I; lia].
    - rewrite (proj2 (Nat.ltb_lt k D)) by lia.
      destruct (level_pass k (n * length ls + fuel) ltac:(lia) ls c [] Hls (proj1 U)) as (c1 & E & P).
      { intros j I. apply U; [exact I|left; apply Nat.lt_succ_diag_r]. }
      cbn [Nat.mul]. rewrite <- Nat.add_assoc, <- (app_nil_r (map _ ls)), E.
      apply (IH (S k) c1); [lia|exact (right_below_S ls (S k) c c1 U P)].
  Qed.

  Theorem tree_hash_correct c ls :
    (forall k j, inr k j -> ~ dirty (keep ls) k j -> good (hresize c (2 * nl - 1)) k j) ->
    exists c', tree_hash pay c t (Some ls) flt nl = Ok c' /\ Valid c'.
  Proof.
    intro Cl. unfold tree_hash.
    assert (Bn : nl <= 2 ^ 30) by (apply pow2_le_mono; lia).
    pose proof (pow2_pos (N.of_nat D)) as Pp. fold nl in Pp.
    unfold u64_mul, u64_sub. destruct (N.ltb_spec (nl * 2) two64) as [_|X]; [|unfold two64 in X; lia]. cbn [bind].
    destruct (N.leb_spec 1 (nl * 2)) as [_|X]; [|lia]. cbn [bind].
    replace (nl * 2 - 1) with (2 * nl - 1) by lia.
    assert (U : right_below (keep ls) 0 (hresize c (2 * nl - 1))).
    { split; [rewrite hresize_length; lia|]. intros k j I [H|H]; [lia|exact (Cl k j I H)]. }
    destruct (leaf_pass_ok ls (hresize c (2 * nl - 1)) [] (proj1 U)) as (c1 & E1 & P).
    rewrite E1. cbn [bind fst snd app].
    (* the fuel of the model, 33 turns per listed leaf (a leaf has at most 32 ancestors), covers the at most 30
       levels with at most one queue entry per listed leaf each *)
    pose proof (Nat.mul_le_mono _ _ _ _ HD (filter_length_le (fun l => l <? nl) ls)) as Lf. fold (keep ls) in Lf.
    replace (33 * S (length ls))%nat with (D * length (keep ls) + (33 * S (length ls) - D * length (keep ls)))%nat by lia.
    exact (queue_ok (keep ls) _ (keep_lt ls) D 0%nat c1 (Nat.add_0_l D) (right_below_S _ _ _ _ U P)).
  Qed.
End Core.

(* the state invariant *)
Definition CacheOK (pay : N -> N) (t : tree) (c : hcache) : Prop :=
  exists D, (D <= 30)%nat /\ total_leaf_count t = 2 ^ N.of_nat D /\ Valid pay t [] D c.

Lemma leaf_count_depth t : small t -> exists D, (D <= 30)%nat /\ total_leaf_count t = 2 ^ N.of_nat D.
Proof.
  intro S. destruct (total_leaf_count_spec t S) as (d & Et & Hd & _).
  exists (N.to_nat d). split; [lia|]. rewrite N2Nat.id. exact Et.
Qed.

Lemma leaf_range_in n l : In l (leaf_range n) <-> l < n.
Proof.
  unfold leaf_range. rewrite in_map_iff. split.
  - intros (i & <- & I). apply in_seq in I. lia.
  - intro L. exists (N.to_nat l). split; [lia|apply in_seq; lia].
Qed.

Lemma every_node_has_a_leaf D k j : inr D k j -> exists l, l < 2 ^ N.of_nat D /\ l / 2 ^ N.of_nat k = j.
Proof.
  intro I. apply inr_iff in I. pose proof (pow2_pos (N.of_nat k)). exists (j * 2 ^ N.of_nat k).
  split; [lia|]. apply N.div_mul. lia.
Qed.

(* initialize_hashes: from an empty cache, everything is computed *)
Theorem initialize_hashes_correct pay t : small t ->
  exists c, initialize_hashes pay [] t = Ok c /\ CacheOK pay t c.
Proof.
  intro S. destruct (leaf_count_depth t S) as (D & HD & Et). cbn [initialize_hashes]. rewrite Et.
  destruct (tree_hash_correct pay t [] D HD [] (leaf_range (2 ^ N.of_nat D))) as (c & E & V).
  - intros k j I Nd. exfalso. apply Nd. destruct (every_node_has_a_leaf D k j I) as (l & Ll & El).
    exists l. split; [|exact El]. apply filter_In. split; [apply leaf_range_in; exact Ll|apply N.ltb_lt; exact Ll].
  - exists c. split; [exact E|]. exists D. split; [exact HD|]. split; [exact Et|exact V].
Qed.

Lemma uncached_from_in c x : forall fuel l, (N.to_nat l < fuel)%nat ->
  (In x (uncached_from fuel c l) <-> x < l /\ N.of_nat (length c) <= 2 * x).
Proof.
  induction fuel as [|f IH]; intros l Lf; [lia|]. cbn [uncached_from].
  destruct (N.eqb_spec l 0) as [->|Nz]; [split; [intros []|lia]|].
  destruct (N.leb_spec (N.of_nat (length c)) (2 * (l - 1))) as [Le|Gt].
  - cbn [In]. rewrite IH by lia. split.
    + intros [<-|[A B]]; lia.
    + intros [A B]. destruct (N.eq_dec x (l - 1)) as [->|Ne]; [left; reflexivity|right; lia].
  - split; [intros []|lia].
Qed.

Lemma uncached_in c n x : In x (uncached c n) <-> x < n /\ N.of_nat (length c) <= 2 * x.
Proof. apply uncached_from_in. lia. Qed.

Lemma dirty_up ls k j : dirty ls k (2 * j) \/ dirty ls k (2 * j + 1) -> dirty ls (S k) j.
Proof.
  intros [(l & I & E)|(l & I & E)]; exists l; (split; [exact I|]); rewrite <- div_pow2_S, E;
    [apply half_double|apply half_succ_double].
Qed.

(* a clean node of the new tree lies inside the old one: otherwise its rightmost leaf is a leaf of the new tree
   only, hence uncached *)
Lemma clean_node_is_old D D' c k j : N.of_nat (length c) = 2 * 2 ^ N.of_nat D - 1 ->
  inr D' k j -> ~ dirty (keep D' (uncached c (2 ^ N.of_nat D'))) k j -> inr D k j.
Proof.
  intros Ln I Nd. apply inr_iff in I. apply inr_iff.
  destruct (N.le_gt_cases ((j + 1) * 2 ^ N.of_nat k) (2 ^ N.of_nat D)) as [Le|Gt]; [exact Le|].
  exfalso. apply Nd. exists ((j + 1) * 2 ^ N.of_nat k - 1). split.
  - apply filter_In. split; [apply uncached_in|apply N.ltb_lt]; lia.
  - apply leaf_range_iff. pose proof (pow2_pos (N.of_nat k)). lia.
Qed.

Theorem tree_hash_after_edit pay pay' t t' flt D D' c updated : (D' <= 30)%nat -> Valid pay t flt D c ->
  (forall l, l < 2 ^ N.of_nat D -> l < 2 ^ N.of_nat D' -> ~ In l updated -> leaf_of pay' t' l = leaf_of pay t l) ->
  (forall k j, inr D' (S k) j -> ~ dirty (keep D' updated) (S k) j ->
     parent_of pay' t' (node (N.of_nat (S k)) j) = parent_of pay t (node (N.of_nat (S k)) j)) ->
  exists c', tree_hash pay' c t' (Some (updated ++ uncached c (2 ^ N.of_nat D'))) flt (2 ^ N.of_nat D') = Ok c' /\
             Valid pay' t' flt D' c'.
Proof.
  intros HD' [Ln V] HL HP. apply (tree_hash_correct pay' t' flt D' HD').
  set (new := uncached c (2 ^ N.of_nat D')). unfold keep. rewrite filter_app. fold (keep D' updated) (keep D' new).
  set (E := keep D' updated ++ keep D' new).
  assert (Old : forall k j, inr D' k j -> ~ dirty E k j -> inr D k j).
  { intros k j I Nd. apply (clean_node_is_old D D' c k j Ln I). intro X. apply Nd, dirty_app. right. exact X. }
  intros k j I Nd. pose proof (Old k j I Nd) as Io. unfold good.
  rewrite hresize_idx, (V k j Io); [|apply inr_bound, I|rewrite Ln; apply inr_bound, Io]. f_equal. symmetry.
  apply (thash_ext pay pay' t t' flt (fun k j => inr D' k j /\ ~ dirty E k j)); [| | |split; assumption].
  - intros k0 j0 [I0 Nd0]. destruct (inr_children D' k0 j0 I0) as [Ia Ib].
    split; (split; [assumption|intro X; apply Nd0, dirty_up]); [left|right]; exact X.
  - intros l [I0 Nd0]. apply HL; [apply inr_0, (Old 0%nat l I0 Nd0)|apply inr_0, I0|].
    intro Il. apply Nd0, dirty_app. left. exists l. split; [|apply N.div_1_r].
    apply filter_In. split; [exact Il|apply N.ltb_lt, inr_0, I0].
  - intros k0 j0 [I0 Nd0]. apply HP; [exact I0|]. intro X. apply Nd0, dirty_app. left. exact X.
Qed.

(* update_hashes keeps the cache right through any edit confined to the listed leaves and their ancestors *)
Theorem update_hashes_keeps_the_cache pay pay' t t' c updated :
  small t' -> CacheOK pay t c ->
  (forall l, l < total_leaf_count t -> l < total_leaf_count t' -> ~ In l updated -> leaf_of pay' t' l = leaf_of pay t l) ->
  (forall k j, (j + 1) * 2 ^ N.of_nat (S k) <= total_leaf_count t' ->
     ~ dirty (filter (fun l => l <? total_leaf_count t') updated) (S k) j ->
     parent_of pay' t' (node (N.of_nat (S k)) j) = parent_of pay t (node (N.of_nat (S k)) j)) ->
  exists c', update_hashes pay' c t' updated = Ok c' /\ CacheOK pay' t' c'.
Proof.
  intros S' (D & HD & Et & V) HL HP. destruct (leaf_count_depth t' S') as (D' & HD' & Et').
  unfold update_hashes. rewrite Et, Et' in HL. rewrite Et' in HP. rewrite Et'.
  destruct (tree_hash_after_edit pay pay' t t' [] D D' c updated HD' V HL) as (c' & E & V').
  - intros k j I. apply HP, inr_iff, I.
  - exists c'. split; [exact E|]. exists D'. split; [exact HD'|]. split; [exact Et'|exact V'].
Qed.

(* what tree_hash() returns, the entry of the root, is the from-scratch hash of the whole tree *)
Theorem cached_root_hash_is_the_tree_hash pay t c D : (D <= 30)%nat -> total_leaf_count t = 2 ^ N.of_nat D ->
  Valid pay t [] D c -> bind (root (total_leaf_count t)) (fun r => hidx c r) = Ok (thash pay t [] D 0).
Proof.
  intros HD Et [_ V]. rewrite Et, root_ok by lia. cbn [bind]. apply V. split; [lia|]. rewrite Nat.sub_diag. cbn. lia.
Qed.
