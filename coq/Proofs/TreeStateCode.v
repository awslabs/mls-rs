(* One commit with a path, with the parent hashes computed by the CODE-shaped walk (Model/ParentHashCode.v, the
   translation of parent_hash.rs update_parent_hashes) instead of the specification function [decorate]: from a
   state in which the tree is well formed, parent-hash valid and cached right, batch_edit + update_hashes +
   apply_update_path + update_parent_hashes lead to such a state again, and none of the calls fails. *)
From Coq Require Import NArith List Lia.
From MlsV Require Import Res TreeMathProofs Tree TreeProofs TreeWF Priv PrivProofs CommitStep ParentHash HashCache HashCacheProofs HashCacheTree TreeState ParentHashCode ParentHashCodeProofs ParentHashCommit.
Import ListNotations.
Local Open Scope N_scope.

Lemma deco_off_the_path (dm dm0 : deco) sndr flt :
  (forall x, x <> 2 * sndr -> (forall i, nth_error flt i = Some false -> x <> lvl_node (N.of_nat (S i)) sndr) -> dm0 x = dm x) ->
  forall n, n <> 2 * sndr -> ~ ancestor n sndr -> dm0 n = dm n.
Proof. intros Hoff n Nl Na. apply Hoff; [exact Nl|]. intros i _ E. apply Na. rewrite E. apply lvl_node_ancestor. lia. Qed.

Section Code.
  Variable PH : N -> N -> hterm -> N.
  Variable enc : N * N -> N.
  Let PHF : N -> N -> cterm -> N := fun k p ct => PH k p (c2h enc ct).

  Lemma code_walk_after_the_update_path t1 sndr id t2 flt c dm dm0 fk leafkey :
    small t1 -> apply_update_path t1 sndr id = TOk t2 ->
    filtered (set t1 (2 * sndr) (Some (Leaf id))) sndr = Ok flt ->
    CacheOK (pay_of enc dm0) t2 c ->
    (forall x, x <> 2 * sndr -> (forall i, nth_error flt i = Some false -> x <> lvl_node (N.of_nat (S i)) sndr) -> dm0 x = dm x) ->
    (forall i, nth_error flt i = Some false -> fst (dm0 (lvl_node (N.of_nat (S i)) sndr)) = fk (N.of_nat i)) ->
    fst (dm0 (2 * sndr)) = leafkey ->
    exists d' h, parent_hash_for_leaf PH t2 c dm0 sndr = Ok (d', h) /\
      forall x, set_ph d' (2 * sndr) h x = decorate PHF t2 dm sndr flt fk leafkey x.
  Proof.
    intros Sm1 Ap Fl (D & HD & Et & _ & Val) Hoff Hkey Hleaf.
    destruct (update_path_depth t1 sndr id t2 flt Sm1 Ap Fl) as (Et2 & Hs & On).
    rewrite Et2 in Et. apply N.pow_inj_r in Et; [|lia]. apply Nat2N.inj in Et. subst D.
    apply (parent_hash_for_leaf_is_decorate PH enc t2 c dm dm0 sndr flt fk leafkey); try assumption.
    - intros i b Hb. exact (flags_after_update_path t1 sndr id t2 flt Sm1 Ap Fl i b Hb).
    - intros i Hf. exists []. exact (On i Hf).
    - intros i Hf. assert (Li : (i < length flt)%nat) by (apply nth_error_Some; congruence).
      rewrite (Val i _ (inr_sib _ HD i sndr Li Hs)). f_equal.
      (* the tree hash of a copath subtree does not depend on the decoration of the path *)
      unfold pay_of. rewrite !thash_is_content. f_equal. apply content_agree.
      apply (agree_outside t2 t2 dm dm0 sndr); [|apply sib_neq].
      intros n Nn Na. split; [reflexivity|]. intros _. exact (deco_off_the_path _ _ _ _ Hoff n Nn Na).
  Qed.

  Theorem commit_with_the_code_parent_hashes s removes updates adds t1 added dm c1 sndr id t2 flt dm0 fk leafkey :
    TInv PHF enc s -> tlen (ts_tree s) + 2 * N.of_nat (length adds) < 2 ^ 25 ->
    batch_edit (ts_tree s) removes updates adds = TOk (t1, added) ->
    (forall n, ~ touched (removes ++ map fst updates ++ added) n -> get (ts_tree s) n <> None -> dm n = ts_deco s n) ->
    (forall n, (forall l, In l (map fst updates) -> n <> 2 * l) -> get (ts_tree s) n <> None -> dm n = ts_deco s n) ->
    update_hashes (pay_of enc dm) (ts_cache s) t1 (removes ++ map fst updates ++ added) = Ok c1 ->
    apply_update_path t1 sndr id = TOk t2 ->
    filtered (set t1 (2 * sndr) (Some (Leaf id))) sndr = Ok flt ->
    (* the decoration after apply_update_path has installed the new keys *)
    (forall x, x <> 2 * sndr -> (forall i, nth_error flt i = Some false -> x <> lvl_node (N.of_nat (S i)) sndr) -> dm0 x = dm x) ->
    (forall i, nth_error flt i = Some false -> fst (dm0 (lvl_node (N.of_nat (S i)) sndr)) = fk (N.of_nat i)) ->
    fst (dm0 (2 * sndr)) = leafkey ->
    exists d2 c2, update_parent_hashes PH enc t2 c1 dm0 sndr = Ok (d2, c2) /\
                  TInv PHF enc {| ts_tree := t2; ts_deco := d2; ts_cache := c2 |}.
  Proof.
    intros Ti Sz B Dt Du U1 Ap Fl Hoff Hkey Hleaf.
    assert (T1 : TInv PHF enc {| ts_tree := t1; ts_deco := dm; ts_cache := c1 |}).
    { apply (tinv_step_nopath PHF enc s _ removes updates adds Ti Sz). exists added. exact (conj B (conj Dt (conj Du U1))). }
    destruct T1 as (T1 & Sm1 & V1 & C1). cbn [ts_tree ts_deco ts_cache] in *.
    destruct (update_path_keeps_the_leaf_count t1 sndr id t2 Sm1 Ap) as [Sm2 _].
    pose proof (one_leaf _ _ (deco_off_the_path dm dm0 sndr flt Hoff)) as Unt.
    unfold update_parent_hashes.
    destruct (cache_right_after_the_update_path (pay_of enc dm) (pay_of enc dm0) t1 sndr id t2 c1 Sm1 Sm2 Ap) as (c1' & E1 & C1'); [|exact C1|].
    { intros n Nt _. unfold pay_of. rewrite (Unt n Nt). reflexivity. }
    change (fun n => enc (dm0 n)) with (pay_of enc dm0). rewrite E1. cbn [bind].
    destruct (code_walk_after_the_update_path t1 sndr id t2 flt c1' dm dm0 fk leafkey Sm1 Ap Fl C1' Hoff Hkey Hleaf) as (d' & h & Ew & Wd).
    rewrite Ew. cbn [bind fst snd]. set (d2 := set_ph d' (2 * sndr) h) in *.
    (* update_hashes again: nothing but the payload of the path has changed *)
    destruct (cache_right_after_a_confined_edit (pay_of enc dm0) (pay_of enc d2) t2 t2 c1' [sndr] Sm2 C1') as (c2 & E2 & C2).
    { intros n Nt. split; [reflexivity|]. intros _. unfold pay_of.
      rewrite (Wd n), (decorate_untouched _ _ _ _ _ _ _ n Nt), (Unt n Nt). reflexivity. }
    change (fun n => enc (d2 n)) with (pay_of enc d2). rewrite E2. cbn [bind].
    exists d2, c2. split; [reflexivity|].
    split; [exact (tree_ok_update_path _ _ _ _ T1 Sm1 Ap)|]. split; [exact Sm2|]. split; [|exact C2].
    apply (PHValid_pointwise PHF t2 _ d2 Wd). destruct T1 as (_ & W5 & Sh).
    exact (ph_update_path_computed PHF t1 sndr id t2 flt dm fk leafkey Sh W5 Sm1 Ap Fl V1).
  Qed.

  Definition step_path_code (s s' : tstate) (removes : list N) (updates : list (N * N)) (adds : list N) (sndr id : N) : Prop :=
    exists t1 added dm c1 flt dm0 fk leafkey,
      batch_edit (ts_tree s) removes updates adds = TOk (t1, added) /\
      (forall n, ~ touched (removes ++ map fst updates ++ added) n -> get (ts_tree s) n <> None -> dm n = ts_deco s n) /\
      (forall n, (forall l, In l (map fst updates) -> n <> 2 * l) -> get (ts_tree s) n <> None -> dm n = ts_deco s n) /\
      update_hashes (pay_of enc dm) (ts_cache s) t1 (removes ++ map fst updates ++ added) = Ok c1 /\
      apply_update_path t1 sndr id = TOk (ts_tree s') /\
      filtered (set t1 (2 * sndr) (Some (Leaf id))) sndr = Ok flt /\
      (forall x, x <> 2 * sndr -> (forall i, nth_error flt i = Some false -> x <> lvl_node (N.of_nat (S i)) sndr) -> dm0 x = dm x) /\
      (forall i, nth_error flt i = Some false -> fst (dm0 (lvl_node (N.of_nat (S i)) sndr)) = fk (N.of_nat i)) /\
      fst (dm0 (2 * sndr)) = leafkey /\
      update_parent_hashes PH enc (ts_tree s') c1 dm0 sndr = Ok (ts_deco s', ts_cache s').

  Inductive creachable : tstate -> Prop :=
  | cr_init id d c : initialize_hashes (pay_of enc d) [] [Some (Leaf id)] = Ok c ->
      creachable {| ts_tree := [Some (Leaf id)]; ts_deco := d; ts_cache := c |}
  | cr_nopath s s' removes updates adds : creachable s ->
      tlen (ts_tree s) + 2 * N.of_nat (length adds) < 2 ^ 25 ->
      step_nopath enc s s' removes updates adds -> creachable s'
  | cr_path s s' removes updates adds sndr id : creachable s ->
      tlen (ts_tree s) + 2 * N.of_nat (length adds) < 2 ^ 25 ->
      step_path_code s s' removes updates adds sndr id -> creachable s'.

  Theorem tinv_creachable s : creachable s -> TInv PHF enc s.
  Proof.
    induction 1 as [id d c I|s s' removes updates adds _ IH Sz St|s s' removes updates adds sndr id _ IH Sz St].
    - apply tinv_reachable. apply tr_init. exact I.
    - eapply tinv_step_nopath; eassumption.
    - destruct St as (t1 & added & dm & c1 & flt & dm0 & fk & leafkey & B & Dt & Du & U1 & Ap & Fl & Hoff & Hkey & Hleaf & Up).
      destruct (commit_with_the_code_parent_hashes s removes updates adds t1 added dm c1 sndr id (ts_tree s') flt dm0 fk leafkey IH Sz B Dt Du U1 Ap Fl Hoff Hkey Hleaf) as (d2 & c2 & E & T).
      rewrite Up in E. injection E as <- <-. destruct s'; exact T.
  Qed.
End Code.

(* non-vacuity: the code-shaped walk on the two-member tree of TreeState's example *)
Fixpoint hsize (h : hterm) : N := match h with HDefault => 0 | HLeaf l _ => l + 1 | HPar _ a b => 1 + hsize a + hsize b end.
Definition ex_PH (k p : N) (h : hterm) : N := k + 2 * p + 3 * hsize h + 1.
Definition ex_dm0 : N -> N * N := fun n => if n =? 0 then (300, 0) else if n =? 1 then (200, 0) else ex_dm n.

Lemma code_walk_example :
  match initialize_hashes (pay_of ex_enc ex_dm) [] [Some (Leaf 1); None; Some (Leaf 7)] with
  | Ok c1 => match update_parent_hashes ex_PH ex_enc ex_t2 c1 ex_dm0 0 with
             | Ok (d2, c2) => snd (d2 0) = ex_PH 200 0 (HLeaf 1 (Some (7, ex_enc (77, 0)))) /\ snd (d2 1) = 0 /\
                              hidx c2 1 = Ok (thash (pay_of ex_enc d2) ex_t2 [] 1 0)
             | _ => False
             end
  | _ => False
  end.
Proof. vm_compute. repeat split; reflexivity. Qed.
