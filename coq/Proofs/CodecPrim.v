(* Primitive lemmas for the codec model: fixed-width integers, varint, length prefixes; and the two
   predicates on decoder results that the descriptor inductions of CodecProofs.v run on - [unread] (at most n
   bytes are left, never out of fuel) and [reads] (exactly what the encoder writes was consumed) - with their
   rules for sequencing. *)
From Coq Require Import List Lia ZArith.
From MlsV Require Import Codec.
Import ListNotations.
Local Open Scope N_scope.
#[local] Arguments N.add : simpl never.
#[local] Arguments N.mul : simpl never.
#[local] Arguments N.div : simpl never.
#[local] Arguments N.modulo : simpl never.
#[local] Arguments N.pow : simpl never.
#[local] Arguments N.sub : simpl never.

Lemma div_add_small a b m : b < m -> (a * m + b) / m = a.
Proof. intro H. rewrite N.div_add_l by lia. rewrite N.div_small by assumption. lia. Qed.

Lemma mod_add_small a b m : b < m -> (a * m + b) mod m = b.
Proof. intro H. rewrite N.add_comm, N.mod_add by lia. apply N.mod_small. assumption. Qed.

Lemma v2 n : 64 <= n < 16384 -> (64 + n / 256) mod 64 * 256 + n mod 256 = n.
Proof.
  intros [_ H]. change (64 + n / 256) with (1 * 64 + n / 256).
  rewrite mod_add_small by (apply N.div_lt_upper_bound; [discriminate|exact H]).
  rewrite N.mul_comm. symmetry. apply N.div_mod. discriminate.
Qed.

Lemma pow256_succ (w : nat) : 256 ^ N.of_nat (S w) = 256 * 256 ^ N.of_nat w.
Proof. rewrite Nnat.Nat2N.inj_succ, N.pow_succ_r'. reflexivity. Qed.

Lemma be_bytes_length w n : length (be_bytes w n) = w.
Proof. induction w; cbn [be_bytes length]; congruence. Qed.

Lemma be_value_acc l : forall acc, be_value l acc = acc * 256 ^ N.of_nat (length l) + be_value l 0.
Proof.
  induction l as [|b r IH]; intro acc.
  - cbn. lia.
  - cbn [be_value length]. rewrite IH, (IH (0 * 256 + b)), pow256_succ. lia.
Qed.

Lemma be_value_bound l : bytes_ok l -> be_value l 0 < 256 ^ N.of_nat (length l).
Proof.
  induction 1 as [|b r Hb Hr IH].
  - cbn. lia.
  - cbn [be_value length]. rewrite be_value_acc, pow256_succ.
    pose proof (N.pow_nonzero 256 (N.of_nat (length r)) ltac:(discriminate)). nia.
Qed.

Lemma be_value_be_bytes w : forall n acc,
  be_value (be_bytes w n) acc = acc * 256 ^ N.of_nat w + n mod 256 ^ N.of_nat w.
Proof.
  induction w as [|w IH]; intros n acc.
  - cbn. rewrite N.mod_1_r. lia.
  - cbn [be_bytes be_value]. rewrite IH, pow256_succ.
    rewrite (N.mul_comm 256 (256 ^ N.of_nat w)).
    rewrite (N.mod_mul_r n (256 ^ N.of_nat w) 256) by (try apply N.pow_nonzero; lia).
    lia.
Qed.

Lemma be_bytes_ok w n : bytes_ok (be_bytes w n).
Proof.
  induction w; cbn [be_bytes]; constructor; auto.
  apply N.mod_upper_bound. lia.
Qed.

Lemma be_bytes_be_value l : forall acc,
  bytes_ok l -> be_bytes (length l) (be_value l acc) = l.
Proof.
  induction l as [|b r IH]; intros acc H; [reflexivity|].
  inversion H as [|? ? Hb Hr]; subst. cbn [length be_bytes be_value].
  rewrite IH by assumption. f_equal.
  rewrite be_value_acc, div_add_small by (apply be_value_bound, Hr). apply mod_add_small, Hb.
Qed.

Lemma take_n_app {A} (a b : list A) : take_n (length a) (a ++ b) = Some (a, b).
Proof.
  unfold take_n. rewrite app_length. replace (Nat.leb _ _) with true by (symmetry; apply Nat.leb_le; lia).
  rewrite firstn_app, Nat.sub_diag, firstn_all, skipn_app, Nat.sub_diag, skipn_all. cbn. rewrite !app_nil_r. reflexivity.
Qed.

Lemma take_n_spec {A} n (l h r : list A) : take_n n l = Some (h, r) -> l = h ++ r /\ length h = n.
Proof.
  unfold take_n. destruct (Nat.leb n (length l)) eqn:E; [|discriminate].
  intro H. injection H as <- <-. split; [symmetry; apply firstn_skipn|].
  apply firstn_length_le. apply Nat.leb_le. assumption.
Qed.

Lemma decode_uint_encode w n rest :
  n < 256 ^ N.of_nat w -> decode_uint w (be_bytes w n ++ rest) = DOk (n, rest).
Proof.
  intro H. unfold decode_uint.
  rewrite <- (be_bytes_length w n) at 1. rewrite take_n_app, be_value_be_bytes.
  rewrite N.mod_small by assumption. reflexivity.
Qed.

Definition unread {A} (n : nat) (m : dres (A * list N)) : Prop :=
  match m with DOk (_, r) => (length r <= n)%nat | DErr e => e <> EOutOfFuel end.

Lemma unread_bind {A B} n (m : dres (A * list N)) (f : A * list N -> dres (B * list N)) :
  unread n m -> (forall a r, (length r <= n)%nat -> unread n (f (a, r))) -> unread n (dbind m f).
Proof. destruct m as [[a r]|e]; cbn; auto. Qed.

Lemma unread_take {A} k (bs : list N) n (f : list N -> A) :
  (length bs <= n)%nat ->
  unread n (match take_n k bs with Some (h, r) => DOk (f h, r) | None => DErr EUnexpectedEOF end).
Proof.
  intro L. destruct (take_n k bs) as [[h r]|] eqn:E; [|discriminate].
  apply take_n_spec in E. destruct E as [-> _]. rewrite app_length in L. cbn. lia.
Qed.

Lemma encode_varint_max n h : encode_varint n = Some h -> n <= varint_max.
Proof. unfold encode_varint. destruct (N.leb_spec n varint_max); [trivial|discriminate]. Qed.

(* A varint of length class p (0, 1, 2) is written big-endian on 2^p bytes, with p in the top
   two bits of the first byte: the first byte is 64 p + n / 256^w, where w = 2^p - 1 bytes follow
   (stated as N.to_nat (2^p) = S w, to match the count - 1 bytes that decode_varint takes).
   The thresholds 64, 16384 and 2^30 of encode_varint are 64 * 256^w for w = 0, 1, 3. *)
Lemma encode_varint_class n : n <= varint_max ->
  exists p w, N.to_nat (2 ^ p) = S w /\ p < 3 /\ n / 256 ^ N.of_nat w < 64 /\ varint_len n = N.of_nat (S w)
              /\ encode_varint n = Some ((p * 64 + n / 256 ^ N.of_nat w) :: be_bytes w n).
Proof.
  intro Hn. unfold encode_varint, varint_len. rewrite (proj2 (N.leb_le _ _) Hn).
  destruct (N.ltb_spec n 64) as [H1|_]; [exists 0, 0%nat|destruct (N.ltb_spec n 16384) as [H2|_]; [exists 1, 1%nat|exists 2, 3%nat]];
    (split; [reflexivity|]; split; [reflexivity|]; split; [apply N.div_lt_upper_bound; [discriminate|]|split; [reflexivity|]]);
    try (cbn [be_bytes]; change (256 ^ N.of_nat 0) with 1; rewrite !N.div_1_r; reflexivity).
  - exact H1.
  - exact H2.
  - exact (proj2 (N.lt_succ_r n varint_max) Hn).
Qed.

Lemma decode_varint_class p w f more rest :
  N.to_nat (2 ^ p) = S w -> p < 3 -> f / 64 = p -> length more = w ->
  decode_varint (f :: more ++ rest) =
    if varint_len (be_value more (f mod 64)) =? N.of_nat (S w)
    then DOk (be_value more (f mod 64), rest) else DErr EVarIntMinimumLengthEncoding.
Proof.
  intros Hc Hp Hf Hl. unfold decode_varint. rewrite Hf, Hc, (proj2 (N.ltb_lt _ _) Hp).
  cbn [Nat.sub]. rewrite Nat.sub_0_r, <- Hl, take_n_app. reflexivity.
Qed.

Lemma varint_roundtrip n h rest :
  encode_varint n = Some h -> decode_varint (h ++ rest) = DOk (n, rest).
Proof.
  intro E. destruct (encode_varint_class n (encode_varint_max _ _ E)) as (p & w & Hc & Hp & Hq & Hlen & E').
  rewrite E' in E. injection E as <-.
  cbn [app]. rewrite (decode_varint_class p w) by (try apply div_add_small; auto using be_bytes_length).
  rewrite mod_add_small, be_value_be_bytes by assumption.
  rewrite (N.mul_comm (n / _)), <- N.div_mod by (apply N.pow_nonzero; discriminate).
  rewrite Hlen, N.eqb_refl. reflexivity.
Qed.

Lemma mul_add_lt c q b P M : q < c -> b < P -> P <= M -> q * P + b < c * M.
Proof. nia. Qed.

Lemma varint_value_bound f more :
  f / 64 < 3 -> bytes_ok more -> length more = (N.to_nat (2 ^ (f / 64)) - 1)%nat ->
  be_value more (f mod 64) <= varint_max.
Proof.
  intros Hp Hm Hl. rewrite be_value_acc. apply N.lt_succ_r. change (N.succ varint_max) with (64 * 256 ^ 3).
  apply mul_add_lt; [apply N.mod_upper_bound; discriminate|apply be_value_bound, Hm|].
  apply N.pow_le_mono_r; [discriminate|]. rewrite Hl.
  pose proof (N.pow_le_mono_r 2 (f / 64) 2 ltac:(discriminate) (proj1 (N.lt_succ_r _ 2) Hp)) as P2.
  change (2 ^ 2) with 4 in P2. set (e := 2 ^ (f / 64)) in *. lia.
Qed.

(* only the shortest form is accepted, and the bytes read are exactly the encoding of the value *)
Lemma varint_canon bs n rest :
  bytes_ok bs -> decode_varint bs = DOk (n, rest) ->
  exists h, encode_varint n = Some h /\ bs = h ++ rest.
Proof.
  intros Hok H. unfold decode_varint in H. destruct bs as [|f r]; [discriminate|].
  destruct (N.ltb_spec (f / 64) 3) as [Hp|]; [|discriminate].
  destruct (take_n _ r) as [[more rest']|] eqn:T; [|discriminate]. apply take_n_spec in T. destruct T as [-> Hl].
  set (n0 := be_value more (f mod 64)) in *.
  destruct (N.eqb_spec (varint_len n0) (N.of_nat (N.to_nat (2 ^ (f / 64))))) as [Hv|]; [|discriminate].
  injection H as <- <-. apply (Forall_app _ [f]) in Hok. destruct Hok as [_ Hok].
  apply Forall_app in Hok. destruct Hok as [Hm _].
  destruct (encode_varint_class n0 (varint_value_bound f more Hp Hm Hl)) as (p & w & Hc & _ & _ & Hlen & E).
  (* the class of n0 is the one the first byte announced *)
  rewrite Hlen in Hv. apply Nnat.Nat2N.inj in Hv. rewrite <- Hv in Hl. rewrite Hv in Hc. cbn [Nat.sub] in Hl. rewrite Nat.sub_0_r in Hl.
  apply Nnat.N2Nat.inj, N.pow_inj_r in Hc; [|reflexivity]. subst p w.
  exists (f :: more). split; [|reflexivity]. rewrite E. unfold n0 at 2. rewrite be_bytes_be_value by assumption.
  unfold n0. rewrite be_value_acc, div_add_small by (apply be_value_bound, Hm).
  rewrite (N.mul_comm (f / 64)), <- N.div_mod by discriminate. reflexivity.
Qed.

Lemma encode_varint_len n h : encode_varint n = Some h -> N.of_nat (length h) = varint_len n.
Proof.
  intro E. destruct (encode_varint_class n (encode_varint_max _ _ E)) as (p & w & _ & _ & _ & Hlen & E').
  rewrite E' in E. injection E as <-. cbn [length]. rewrite be_bytes_length. symmetry. exact Hlen.
Qed.

Lemma encode_varint_nonempty n h : encode_varint n = Some h -> h <> [].
Proof.
  intros H E. apply encode_varint_len in H. subst h. unfold varint_len in H.
  destruct (n <? 64); [discriminate|]. destruct (n <? 16384); discriminate.
Qed.

Lemma encode_varint_ok n h : encode_varint n = Some h -> bytes_ok h.
Proof.
  intro E. destruct (encode_varint_class n (encode_varint_max _ _ E)) as (p & w & _ & Hp & Hq & _ & E').
  rewrite E' in E. injection E as <-. apply Forall_cons; [lia|apply be_bytes_ok].
Qed.

Lemma split_with_len body bs rest :
  with_len body = Some bs -> split_collection (bs ++ rest) = DOk (body, rest).
Proof.
  unfold with_len, split_collection. destruct (encode_varint (N.of_nat (length body))) as [h|] eqn:E; [|discriminate].
  cbn [obind]. intro H. injection H as <-. rewrite <- app_assoc.
  rewrite (varint_roundtrip _ _ _ E). cbn [dbind].
  destruct (N.ltb_spec (N.of_nat (length (body ++ rest))) (N.of_nat (length body))) as [L|_];
    [rewrite app_length in L; lia|].
  rewrite Nnat.Nat2N.id, take_n_app. reflexivity.
Qed.

Lemma split_collection_ok bs data rest :
  split_collection bs = DOk (data, rest) ->
  exists len, decode_varint bs = DOk (len, data ++ rest) /\ length data = N.to_nat len.
Proof.
  unfold split_collection. destruct (decode_varint bs) as [[len r]|]; [|discriminate]. cbn [dbind].
  destruct (_ <? len); [discriminate|]. destruct (take_n _ r) as [[d rest']|] eqn:T; [|discriminate].
  intro H. injection H as <- <-. apply take_n_spec in T. destruct T as [-> L].
  exists len. split; [reflexivity|exact L].
Qed.

Lemma varint_unread f bs n : (length bs <= n)%nat -> unread n (decode_varint (f :: bs)).
Proof.
  intro L. unfold decode_varint. destruct (f / 64 <? 3); [|discriminate].
  destruct (take_n _ bs) as [[m r]|] eqn:T; [|discriminate]. destruct (_ =? _); [|discriminate].
  apply take_n_spec in T. destruct T as [-> _]. cbn. rewrite app_length in L. lia.
Qed.

(* the length prefix never reaches beyond the input *)
Lemma split_in_bounds bs data rest :
  split_collection bs = DOk (data, rest) -> (length data + length rest < length bs)%nat.
Proof.
  intro H. apply split_collection_ok in H. destruct H as (len & E & _).
  destruct bs as [|f bs]; [discriminate|]. pose proof (varint_unread f bs _ (le_n _)) as V. rewrite E in V.
  cbn in V |- *. rewrite app_length in V. apply Nat.lt_succ_r, V.
Qed.

Lemma unread_split bs n : (length bs <= n)%nat -> unread n (split_collection bs).
Proof.
  intro L. unfold split_collection. apply unread_bind.
  - destruct bs as [|f bs]; [discriminate|]. apply varint_unread, Nat.lt_le_incl, L.
  - intros len r Lr. cbn. destruct (_ <? len); [discriminate|]. apply unread_take, Lr.
Qed.

(* [pre]: the bytes of the same value that were taken before bs *)
Definition reads {A} (enc : A -> option (list N)) (pre bs : list N) (m : dres (A * list N)) : Prop :=
  match m with
  | DOk (a, r) => exists used, enc a = Some (pre ++ used) /\ bs = used ++ r
  | DErr _ => True
  end.

Lemma reads_ret {A} (enc : A -> option (list N)) pre bs a : enc a = Some pre -> reads enc pre bs (DOk (a, bs)).
Proof. intro E. exists []. rewrite app_nil_r. split; [exact E|reflexivity]. Qed.

Lemma reads_bind {A B} (ea : A -> option (list N)) (eb : B -> option (list N)) pre bs m f :
  bytes_ok bs -> reads ea [] bs m ->
  (forall a ua r, ea a = Some ua -> bytes_ok ua -> bytes_ok r -> reads eb (pre ++ ua) r (f (a, r))) ->
  reads eb pre bs (dbind m f).
Proof.
  intros Hok Hm Hf. destruct m as [[a r]|e]; [|exact I]. destruct Hm as (ua & Ea & ->).
  apply Forall_app in Hok. specialize (Hf a ua r Ea (proj1 Hok) (proj2 Hok)). cbn [dbind].
  destruct (f (a, r)) as [[b r']|e]; [|exact I]. destruct Hf as (ub & Eb & ->).
  exists (ua ++ ub). rewrite <- app_assoc in Eb. split; [exact Eb|apply app_assoc].
Qed.

Lemma reads_uint_bind {B} w (eb : B -> option (list N)) bs f :
  bytes_ok bs ->
  (forall n r, n < 256 ^ N.of_nat w -> bytes_ok r -> reads eb (be_bytes w n) r (f (n, r))) ->
  reads eb [] bs (dbind (decode_uint w bs) f).
Proof.
  intros Hok Hf. unfold decode_uint. destruct (take_n w bs) as [[h r]|] eqn:E; [|exact I].
  apply take_n_spec in E. destruct E as [-> <-]. apply Forall_app in Hok. destruct Hok as [Hh Hr]. cbn [dbind].
  specialize (Hf _ r (be_value_bound _ Hh) Hr). rewrite be_bytes_be_value in Hf by exact Hh.
  destruct (f _) as [[b r']|]; [|exact I].
  destruct Hf as (ub & Eb & ->). exists (h ++ ub). split; [exact Eb|apply app_assoc].
Qed.

Lemma reads_split bs : bytes_ok bs -> reads with_len [] bs (split_collection bs).
Proof.
  intro Hok. destruct (split_collection bs) as [[d r]|e] eqn:E; [|exact I].
  apply split_collection_ok in E. destruct E as (len & E & L).
  destruct (varint_canon _ _ _ Hok E) as (h & Hh & ->).
  exists (h ++ d). unfold with_len. rewrite L, Nnat.N2Nat.id, Hh. cbn [obind app].
  rewrite app_assoc. split; reflexivity.
Qed.
