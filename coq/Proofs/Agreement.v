(* TreeKEM agreement, end to end over the models: the committer seals the path secret of every
   non-filtered level to the resolution of the copath node; a receiver whose private state is
   sound (PrivOK) and complete (Complete) selects a ciphertext that was sealed to a key it holds,
   opens the committer's path secret of its level, and from there derives the committer's commit
   secret.  Ciphertexts are symbolic: a pair (recipient key token, secret) opens under that key. *)
From Coq Require Import NArith List Lia.
From MlsV Require Import Res TreeMathProofs Tree TreeProofs Priv PrivProofs Decap DecapProofs PrivComplete KemSecrets KemSecretsProofs.
Import ListNotations.
Local Open Scope N_scope.

(* the receiver's level below the common ancestor is never filtered in the committer's list *)
Lemma receiver_level_unfiltered t sndr me k flt :
  shape_ok t -> small t -> 2 * sndr < tlen t -> get t (2 * me) <> None ->
  filtered t sndr = Ok flt -> me / 2 ^ N.of_nat k = sib (sndr / 2 ^ N.of_nat k) ->
  (k < length flt)%nat -> nth k flt true = false.
Proof.
  intros Sh Sm Ls Nb F Eq Lk.
  destruct (filtered_flags t sndr flt Sm ltac:(lia) F) as (_ & _ & _ & Flag).
  destruct (nth_error flt k) as [b|] eqn:Hf; [|apply nth_error_None in Hf; lia].
  destruct (Flag k b Hf) as (L29 & Fu & Re).
  rewrite (nth_error_nth flt k true Hf). destruct b; [exfalso|reflexivity].
  rewrite (member_resolution_nonempty t k _ me (resolution_of_spec_fuel t k _ L29 Fu) Eq Nb) in Re. discriminate.
Qed.

Section Agree.
  Variable sec : Type.
  Variable derive : sec -> sec.

  Definition ctxt := (option N * sec)%type.
  Definition seal_to (ks : keys) (recips : list N) (s : sec) : list ctxt := map (fun x => (ks x, s)) recips.
  Definition open_with (key : N) (c : ctxt) : option sec :=
    match fst c with Some k => if k =? key then Some (snd c) else None | None => None end.

  Theorem receiver_derives_the_commit_secret ks t me pr k excl flt r i key s :
    PrivOK ks me pr ->
    decap_select t me pr k excl = Ok (Some (i, key)) ->
    nth k flt true = false ->
    secret_at sec (fst (committer_chain sec derive flt r)) k = Some s ->
    exists recips ct,
      sealed_to t (lvl_node (N.of_nat k) me) excl = Ok recips /\
      nth_error (seal_to ks recips s) i = Some ct /\
      open_with key ct = Some s /\
      receiver_chain sec derive (skipn k flt) s =
        (skipn k (fst (committer_chain sec derive flt r)), snd (committer_chain sec derive flt r)).
  Proof.
    intros P D Hf Hs. destruct (decap_select_sound ks t me pr k excl i key P D) as (recips & x & Sl & Hn & Hk).
    exists recips, (ks x, s). split; [exact Sl|]. split; [|split].
    - unfold seal_to. rewrite nth_error_map, Hn. reflexivity.
    - unfold open_with. cbn [fst snd]. rewrite Hk, N.eqb_refl. reflexivity.
    - apply receiver_reaches_commit_secret; assumption.
  Qed.
End Agree.
