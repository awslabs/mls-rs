(* The inputs of the transcript hashes as translated from group/transcript_hash.rs
   (Gen/TranscriptGen.v) are those of RFC 9420 8.2 as written in Model/KeyScheduleRFC.v and
   used by the byte-for-byte comparison of C13 (Model/KsCases.v cth_input). *)
From Coq Require Import List.
From MlsV Require Import Codec Hkdf KeyScheduleRFC CodecTypes KsCases TranscriptGen.
Import ListNotations.

Theorem translated_confirmed_hash H interim_prev wf fc sig :
  confirmed_transcript_hash H interim_prev (wf ++ fc ++ sig) =
  h_fun H (gen_confirmed_hash_input interim_prev (gen_confirmed_input wf fc sig)).
Proof. reflexivity. Qed.

Theorem translated_interim_hash H confirmed tag :
  interim_transcript_hash H confirmed tag =
  h_fun H (gen_interim_hash_input confirmed (gen_interim_input (vbytes tag))).
Proof. reflexivity. Qed.

(* what the comparison feeds into the hash is the translated input over the three parts of the
   AuthenticatedContent, the wire format it was SENT with included *)
Theorem cth_input_is_translated ac inp tag :
  cth_input ac = Some (inp, tag) ->
  exists wf fc auth sig rest a b c,
    decode T_AuthenticatedContent None ac = DOk (VCons wf (VCons fc auth), rest) /\
    encode T_WireFormat wf = Some a /\ encode T_FramedContent fc = Some b /\ encode T_MessageSignature sig = Some c /\
    inp = gen_confirmed_input a b c.
Proof.
  unfold cth_input. destruct (decode T_AuthenticatedContent None ac) as [[v rest]|e] eqn:D; try discriminate.
  destruct v as [| | | |x v'| | |]; try discriminate. destruct v' as [| | | |fc auth| | |]; try discriminate.
  destruct auth as [| | | |sig r| | |]; try discriminate.
  destruct (encode T_WireFormat x) as [a|] eqn:Ea; try discriminate.
  destruct (encode T_FramedContent fc) as [b|] eqn:Eb; try discriminate.
  destruct (encode T_MessageSignature sig) as [c|] eqn:Ec; try discriminate.
  intro E. injection E as <- _. exists x, fc, (VCons sig r), sig, rest, a, b, c. repeat split; assumption.
Qed.
