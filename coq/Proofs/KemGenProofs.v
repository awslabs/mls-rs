(* The selection logic translated from tree_kem/kem.rs (Gen/KemGen.v) is the one the decap /
   encap models and their theorems are about (Model/Decap.v, Model/Kem.v). *)
From Coq Require Import NArith List Lia.
From MlsV Require Import Res TreeMathProofs Tree Kem Priv Decap KemGen.
Import ListNotations.
Local Open Scope N_scope.

Theorem gen_keep_is_model excl idx : gen_keep excl idx = keep excl idx.
Proof. unfold gen_keep, keep. rewrite <- N.bit0_eqb, N.bit0_odd. reflexivity. Qed.

Theorem gen_seal_keep_is_model excl idx : gen_seal_keep (map (fun l => 2 * l) excl) idx = not_excluded excl idx.
Proof. reflexivity. Qed.

(* the receiver's tests, by position on its path *)
Definition blank_at (t : tree) (me : N) (i : nat) : bool := match get t (lvl_node (N.of_nat i) me) with None => true | Some _ => false end.
Definition nokey_at (pr : priv) (i : nat) : bool := match nth_error pr i with Some (Some _) => false | _ => true end.

Lemma gen_walk_down_is_down t me : blank_at t me O = false -> forall k f, (k < f)%nat ->
  gen_walk_down (blank_at t me) f k = Ok (down t me k).
Proof.
  intros B0. induction k as [|k IH]; intros f Lf; destruct f as [|f]; try lia; cbn [gen_walk_down down].
  - rewrite B0. reflexivity.
  - unfold blank_at at 1. destruct (get t (lvl_node (N.of_nat (S k)) me)) eqn:G; [reflexivity|]. apply IH. lia.
Qed.

Theorem gen_resolved_pos_is_model t me pr k : get t (2 * me) <> None ->
  gen_resolved_pos (blank_at t me) (nokey_at pr) k = Ok (resolved_pos t me pr k).
Proof.
  intro Nb. unfold gen_resolved_pos.
  assert (B0 : blank_at t me O = false).
  { unfold blank_at, lvl_node. cbn [N.of_nat]. rewrite N.pow_0_r, N.div_1_r, node_0. destruct (get t (2 * me)); [reflexivity|congruence]. }
  rewrite (gen_walk_down_is_down t me B0 k (S k)) by lia.
  cbn [bind ret]. unfold resolved_pos, nokey_at. destruct (nth_error pr (down t me k)) as [[x|]|]; reflexivity.
Qed.
