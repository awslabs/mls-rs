(* The hash cache through a commit: the proposals of a commit change the tree only at the removed, updated and
   added leaves and at their ancestors, the update path only at the committer's leaf and its ancestors; these are
   the leaves batch_edit and the path code list for update_hashes, so the cache that was right before the commit
   is right after it (Proofs/HashCacheProofs.v update_hashes_keeps_the_cache). *)
From Coq Require Import NArith List Lia.
From MlsV Require Import Res TreeMathProofs Tree TreeProofs TreeWF PrivComplete ParentHash HashCache HashCacheProofs.
Import ListNotations.
Local Open Scope N_scope.

Lemma apply_adds_frame ids : forall t start acc t' added,
  tlen t + 2 * N.of_nat (length ids) < 2 ^ 25 -> 2 * start <= tlen t + 1 ->
  apply_adds t ids start acc = TOk (t', added) ->
  exists news, added = rev acc ++ news /\ forall n, ~ touched news n -> get t' n = get t n.
Proof.
  induction ids as [|id rest IH]; intros t start acc t' added S Hs A.
  - injection A as <- <-. exists []. split; [symmetry; apply app_nil_r|reflexivity].
  - apply apply_adds_cons in A. destruct A as (t1 & idx & Ad & A). cbn [length] in S.
    pose proof (add_leaf_length _ _ _ _ _ Ad) as L1.
    destruct (add_leaf_rel t id start t1 idx ltac:(lia) Hs Ad) as (_ & _ & _ & Fr).
    destruct (IH t1 idx (idx :: acc) t' added ltac:(lia) (add_leaf_next_start _ _ _ _ _ Ad) A) as (news & -> & Fn).
    exists (idx :: news). split; [cbn [rev]; rewrite <- app_assoc; reflexivity|].
    intros n Nt. apply untouched_cons in Nt. destruct Nt as (Nl & Na & Nt). rewrite (Fn n Nt). exact (Fr n Na Nl).
Qed.

(* the proposals of a commit change nothing outside the leaves batch_edit lists for update_hashes *)
Theorem batch_edit_frame t removes updates adds t' added :
  tlen t + 2 * N.of_nat (length adds) < 2 ^ 25 ->
  batch_edit t removes updates adds = TOk (t', added) ->
  forall n, ~ touched (removes ++ map fst updates ++ added) n -> get t' n = get t n.
Proof.
  intros S B n Nt. apply batch_edit_ok in B. destruct B as (ta & tb & tc & td & R1 & U & Bp & Ad & -> & La & Lb & Lc).
  destruct (apply_adds_frame adds tc 0 [] td added ltac:(rewrite Lc; exact S) (N.le_0_l _) Ad) as (news & -> & Fn). cbn [rev app] in Nt.
  destruct (untouched_app _ _ _ Nt) as [Nr Nua]. destruct (untouched_app _ _ _ Nua) as [Nu Na].
  pose proof (proj1 (not_touched_iff _ _) Nu) as Uu. rewrite get_trim, (Fn n Na).
  rewrite (blank_paths_get (map fst updates) tb tc ltac:(unfold small; lia)
             ltac:(intros l Il; pose proof (apply_updates_in_tree _ _ _ U l Il); lia) Bp n (fun l Il => proj2 (Uu l Il))).
  rewrite (apply_updates_get updates ta tb U n (fun l Il => proj1 (Uu l Il))).
  apply (apply_removes_get (rev removes) t ta ltac:(unfold small; lia) R1).
  intros l Il. apply (proj1 (not_touched_iff _ _) Nr), in_rev, Il.
Qed.

(* the update path changes nothing outside the committer's leaf and its ancestors *)
Theorem update_path_frame t sndr id t2 : small t -> apply_update_path t sndr id = TOk t2 ->
  forall n, ~ touched [sndr] n -> get t2 n = get t n.
Proof.
  intros Sm Ap. apply one_leaf. intros n Nl Na.
  rewrite (update_path_get t sndr id t2 Sm Ap n Na). apply get_set_other. congruence.
Qed.

(* [touched] (ParentHash) and [dirty] (HashCacheProofs) say the same of a parent node inside a tree of nl leaves *)
Lemma touched_dirty ls nl k j : (j + 1) * 2 ^ N.of_nat (S k) <= nl ->
  touched ls (node (N.of_nat (S k)) j) -> dirty (filter (fun l => l <? nl) ls) (S k) j.
Proof.
  intros Hj (l & Il & [E|A]); [exfalso; exact (not_leaf_node _ _ _ E)|].
  apply ancestor_node in A. exists l. split; [|exact A].
  apply filter_In. split; [exact Il|]. apply N.ltb_lt.
  pose proof (pow2_pos (N.of_nat (S k))) as P.
  assert (l < (j + 1) * 2 ^ N.of_nat (S k)); [|lia].
  rewrite <- A. pose proof (N.mul_succ_div_gt l (2 ^ N.of_nat (S k)) ltac:(lia)). lia.
Qed.

(* any edit that stays within the listed leaves and their ancestors, payload included, keeps the cache right *)
Theorem cache_right_after_a_confined_edit pay pay' t t' c ls :
  small t' -> CacheOK pay t c ->
  (forall n, ~ touched ls n -> get t' n = get t n /\ (get t n <> None -> pay' n = pay n)) ->
  exists c', update_hashes pay' c t' ls = Ok c' /\ CacheOK pay' t' c'.
Proof.
  intros S' C Fr. apply (update_hashes_keeps_the_cache pay pay' t t' c ls S' C).
  - intros l _ _ Nl. unfold leaf_of. destruct (Fr (2 * l)) as [G P]; [intro T; apply Nl; apply touched_leaf; exact T|].
    rewrite G. destruct (get t (2 * l)) as [[id|um]|]; try reflexivity. rewrite P by discriminate. reflexivity.
  - intros k j Hj Nd. unfold parent_of. destruct (Fr (node (N.of_nat (S k)) j)) as [G P]; [intro T; apply Nd; apply touched_dirty; assumption|].
    rewrite G. destruct (get t (node (N.of_nat (S k)) j)) as [[id|um]|]; try reflexivity. rewrite P by discriminate. reflexivity.
Qed.

Theorem cache_right_after_the_proposals pay pay' t removes updates adds t' added c :
  wf3 t -> tlen t + 2 * N.of_nat (length adds) < 2 ^ 25 ->
  batch_edit t removes updates adds = TOk (t', added) ->
  (forall n, ~ touched (removes ++ map fst updates ++ added) n -> get t n <> None -> pay' n = pay n) ->
  CacheOK pay t c ->
  exists c', update_hashes pay' c t' (removes ++ map fst updates ++ added) = Ok c' /\ CacheOK pay' t' c'.
Proof.
  intros W3 S B P C.
  assert (S' : small t').
  { destruct (wf3_batch_edit _ _ _ _ _ _ W3 S B) as [_ L1]. unfold small. lia. }
  apply (cache_right_after_a_confined_edit pay pay' t t' c _ S' C).
  intros n Nt. split; [apply (batch_edit_frame t removes updates adds t' added S B n Nt)|apply P; exact Nt].
Qed.

Theorem cache_right_after_the_update_path pay pay' t sndr id t2 c :
  small t -> small t2 -> apply_update_path t sndr id = TOk t2 ->
  (forall n, ~ touched [sndr] n -> get t n <> None -> pay' n = pay n) ->
  CacheOK pay t c ->
  exists c', update_hashes pay' c t2 [sndr] = Ok c' /\ CacheOK pay' t2 c'.
Proof.
  intros Sm S2 Ap P C.
  apply (cache_right_after_a_confined_edit pay pay' t t2 c [sndr] S2 C).
  intros n Nt. split; [apply (update_path_frame t sndr id t2 Sm Ap n Nt)|apply P; exact Nt].
Qed.
