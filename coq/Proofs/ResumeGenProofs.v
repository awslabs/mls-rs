(* The re-init / branch rules, the joiner's handling of the old group's resumption PSK, the PSK
   resolver and the repository lookup behind it, as translated from resumption.rs, group/mod.rs,
   psk/resolver.rs and state_repo.rs (Gen/ResumeGen.v), are the models the theorems of C17 and
   C18 are about (Model/Subgroup.v, Model/PskIdeal.v). *)
From Coq Require Import NArith List Bool Lia.
From MlsV Require Import Subgroup PskIdeal ResumeGen StorageProofs.
Import ListNotations.
Local Open Scope N_scope.

Theorem gen_subgroup_ok_is_model typ old_tree new_tree :
  gen_subgroup_ok typ (members_of old_tree) (members_of new_tree) = subgroup_ok typ old_tree new_tree.
Proof.
  unfold gen_subgroup_ok, subgroup_ok. destruct typ; cbn [is_reinit andb].
  - destruct (Nat.eqb _ _); reflexivity.
  - reflexivity.
Qed.

Theorem gen_join_params_is_model typ e g :
  gen_join_params (gen_verify_gid typ) e g = join_params_ok typ e g.
Proof.
  unfold gen_join_params, join_params_ok, gen_verify_gid.
  (* early returns on the left, the same tests as a conjunction in another order on the right *)
  destruct (pr_version g =? pr_version e); [|reflexivity].
  destruct (pr_suite g =? pr_suite e); [|reflexivity].
  destruct typ, (pr_epoch g =? 1), (pr_gid g =? pr_gid e), (pr_ext g =? pr_ext e); reflexivity.
Qed.

Theorem gen_expected_id_is_model typ gid epoch : gen_expected_id typ gid epoch = expected_id typ gid epoch.
Proof. reflexivity. Qed.

Theorem gen_joiner_psk_is_model psks additional : gen_joiner_psk psks additional = joiner_psk psks additional.
Proof.
  unfold gen_joiner_psk, joiner_psk. destruct additional as [mine|]; [|reflexivity].
  destruct psks as [|first rest]; [reflexivity|].
  destruct (w_id first) as [x|u gid epoch]; [reflexivity|]. destruct u; reflexivity.
Qed.

(* the two above, in the form C17 states *)
Lemma translated_joiner_psk typ gid epoch psks additional :
  gen_expected_id typ gid epoch = expected_id typ gid epoch /\ gen_joiner_psk psks additional = joiner_psk psks additional.
Proof. split; [apply gen_expected_id_is_model|apply gen_joiner_psk_is_model]. Qed.

(* what the joiner feeds into the PSK chain: its own id for the old group, and of the Welcome only
   the nonce - of a first PSK id that is a resumption id of usage re-init or branch *)
Theorem joiner_psk_inject psks mine id nonce :
  joiner_psk psks (Some mine) = JInject id nonce ->
  id = mine /\
  exists first rest u gid epoch,
    psks = first :: rest /\ nonce = w_nonce first /\ w_id first = JResumption u gid epoch /\ u <> UApplication.
Proof.
  unfold joiner_psk. destruct psks as [|first rest]; [discriminate|].
  destruct (w_id first) as [x|u gid epoch] eqn:E; [discriminate|].
  intro H. assert (U : u <> UApplication) by (intros ->; discriminate H).
  assert (J : JInject mine (w_nonce first) = JInject id nonce) by (destruct u; [contradiction| |]; exact H).
  injection J as <- <-. split; [reflexivity|]. exists first, rest, u, gid, epoch.
  split; [reflexivity|]. split; [reflexivity|]. split; [exact E|exact U].
Qed.

(* no PSK listed, an external PSK first, or an application-usage resumption PSK first: refused *)
Theorem joiner_psk_refuses psks mine :
  psks = [] \/
  (exists first rest x, psks = first :: rest /\ w_id first = JExternal x) \/
  (exists first rest gid epoch, psks = first :: rest /\ w_id first = JResumption UApplication gid epoch) ->
  joiner_psk psks (Some mine) = JUnexpected.
Proof.
  unfold joiner_psk. intros [E|[(first & rest & x & E & F)|(first & rest & gid & epoch & E & F)]]; subst psks; [reflexivity| |]; rewrite F; reflexivity.
Qed.

Theorem gen_resolve_one_is_model h p : gen_resolve_one h (model_repo h) p = resolve h p.
Proof.
  destruct p as [id|gid epoch]; [reflexivity|].
  unfold gen_resolve_one, gen_resolve_resumption, resolve, model_repo.
  rewrite (N.eqb_sym (h_epoch h) epoch), (N.eqb_sym (h_gid h) gid), andb_comm.
  destruct ((gid =? h_gid h) && (epoch =? h_epoch h)); [reflexivity|].
  destruct (if gid =? h_gid h then lookup2 epoch (h_unwritten h) else None); [reflexivity|].
  destruct (find _ (h_stored h)); reflexivity.
Qed.

Lemma gen_resolve_loop h l : forall acc,
  fold_left (fun acc id => match acc with
                           | None => None
                           | Some secret_inputs => match gen_resolve_one h (model_repo h) id with
                                                   | Some psk => Some (secret_inputs ++ [psk])
                                                   | None => None
                                                   end
                           end) l acc =
  match acc, resolve_all h l with Some a, Some r => Some (a ++ r) | _, _ => None end.
Proof.
  induction l as [|p l IH]; intro acc; cbn [fold_left resolve_all].
  - destruct acc; [rewrite app_nil_r|]; reflexivity.
  - rewrite IH, gen_resolve_one_is_model. destruct acc as [a|]; [|reflexivity].
    destruct (resolve h p), (resolve_all h l); rewrite <- ?app_assoc; reflexivity.
Qed.

Theorem gen_resolve_all_is_model h l : gen_resolve_all h (model_repo h) l = resolve_all h l.
Proof. unfold gen_resolve_all. rewrite gen_resolve_loop. destruct (resolve_all h l); reflexivity. Qed.

(* the two above, in the form C18 states *)
Lemma translated_resolver h p l :
  gen_resolve_one h (model_repo h) p = resolve h p /\ gen_resolve_all h (model_repo h) l = resolve_all h l.
Proof. split; [apply gen_resolve_one_is_model|apply gen_resolve_all_is_model]. Qed.

(* the values come out in the order of the ids, one per id *)
Lemma resolve_all_in_order h l : forall vs, resolve_all h l = Some vs -> Forall2 (fun p v => resolve h p = Some v) l vs.
Proof.
  induction l as [|p l IH]; intros vs E; cbn [resolve_all] in E.
  - injection E as <-. constructor.
  - destruct (resolve h p) as [v|] eqn:R; [|discriminate]. destruct (resolve_all h l) as [r|]; [|discriminate].
    injection E as <-. constructor; [exact R|apply IH; reflexivity].
Qed.
Lemma translated_resolver_in_order h l vs :
  gen_resolve_all h (model_repo h) l = Some vs -> Forall2 (fun p v => gen_resolve_one h (model_repo h) p = Some v) l vs.
Proof.
  rewrite gen_resolve_all_is_model. intro E. apply resolve_all_in_order in E.
  induction E as [|p v l vs R E IH]; constructor; [rewrite gen_resolve_one_is_model; exact R|exact IH].
Qed.

Lemma position_find (f : N * N -> bool) (l : list (N * N)) (K : option N) :
  match position f l with Some i => option_map snd (nth_error l i) | None => K end =
  match find f l with Some x => Some (snd x) | None => K end.
Proof.
  induction l as [|x l IH]; [reflexivity|]. cbn [position find]. destruct (f x); [reflexivity|].
  rewrite <- IH. destruct (position f l); reflexivity.
Qed.

Lemma find_app {A} (f : A -> bool) (a b : list A) :
  find f (a ++ b) = match find f a with Some x => Some x | None => find f b end.
Proof. induction a as [|x a IH]; [reflexivity|]. cbn [find app]. destruct (f x); [reflexivity|exact IH]. Qed.

Lemma consecutive_contig from l : consecutive from l = true -> contig_from from l.
Proof.
  revert from. induction l as [|[i d] l IH]; intros from C; [exact I|].
  cbn [consecutive fst] in C. apply andb_true_iff in C as [E C]. apply N.eqb_eq in E. split; [exact E|exact (IH _ C)].
Qed.

Lemma find_none_all {A} (f g : A -> bool) l : forallb g l = true -> (forall x, g x = true -> f x = false) -> find f l = None.
Proof.
  intros G H. induction l as [|x l IH]; [reflexivity|]. cbn [forallb] in G. apply andb_true_iff in G as [Gx G].
  cbn [find]. rewrite (H x Gx). exact (IH G).
Qed.

Theorem gen_repo_resumption_is_model r cur_epoch cur ext gid epoch :
  repo_wf r = true ->
  gen_repo_resumption r gid epoch = model_repo (holder_of r cur_epoch cur ext) gid epoch.
Proof.
  intro W. unfold gen_repo_resumption, model_repo, holder_of, stored_lookup, find_pending, lookup2.
  cbn [h_gid h_unwritten h_stored].
  destruct (gid =? r_gid r) eqn:G; [|reflexivity].
  apply N.eqb_eq in G. rewrite find_app, position_find. unfold repo_wf in W.
  destruct (r_inserts r) as [|x ins] eqn:I; cbn [hd_error option_map].
  - cbn [find]. destruct (find _ (r_updates r)); reflexivity.
  - rewrite <- I in *. apply andb_true_iff in W as [W Ws]. apply andb_true_iff in W as [Wc Wu].
    rewrite (find_contig _ _ (consecutive_contig _ _ Wc) epoch). destruct (fst x <=? epoch) eqn:L.
    + destruct (nth_error (r_inserts r) (N.to_nat (epoch - fst x))); [reflexivity|]. cbn [option_map].
      (* an epoch at or after the first insert is neither among the updates nor in the storage *)
      apply N.leb_le in L.
      rewrite (find_none_all _ _ _ Wu) by (intros u Hu; apply N.ltb_lt in Hu; apply N.eqb_neq; lia).
      rewrite (find_none_all _ _ _ Ws); [reflexivity|].
      intros s Hs. apply orb_true_iff in Hs as [Hs|Hs].
      * apply negb_true_iff in Hs. rewrite G, Hs. reflexivity.
      * apply N.ltb_lt in Hs. apply andb_false_iff. right. apply N.eqb_neq. lia.
    + destruct (find _ (r_updates r)); reflexivity.
Qed.

(* the two together: the translated resolver over the translated repository lookup is the
   resolution model, for every repository that keeps its books *)
Theorem gen_resolver_over_gen_repository r cur_epoch cur ext p :
  repo_wf r = true ->
  gen_resolve_one (holder_of r cur_epoch cur ext) (gen_repo_resumption r) p = resolve (holder_of r cur_epoch cur ext) p.
Proof.
  intro W. rewrite <- gen_resolve_one_is_model. destruct p as [id|gid epoch]; [reflexivity|].
  unfold gen_resolve_one, gen_resolve_resumption. rewrite (gen_repo_resumption_is_model r cur_epoch cur ext gid epoch W). reflexivity.
Qed.

Example repo_wf_nontrivial :
  repo_wf {| r_gid := 1; r_inserts := [(5, 50); (6, 60)]; r_updates := [(3, 30)]; r_stored := [(1, 2, 20); (1, 3, 31); (2, 9, 90)] |} = true.
Proof. reflexivity. Qed.
