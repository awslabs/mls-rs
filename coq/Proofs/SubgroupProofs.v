(* The membership rule of re-init / branch (Model/Subgroup.v) as set conditions on the occupied leaves -
   blank leaves do not matter - and the parameter checks of the joiner. *)
From Coq Require Import NArith List Bool Arith.
From MlsV Require Import Tree Subgroup.
Import ListNotations.
Local Open Scope N_scope.

Lemma mem_id_in x l : mem_id x l = true <-> In x l.
Proof.
  unfold mem_id. rewrite existsb_exists. split.
  - intros (y & I & E). apply N.eqb_eq in E. subst. exact I.
  - intro I. exists x. split; [exact I|apply N.eqb_refl].
Qed.
Lemma subset_incl a b : subset_ids a b = true <-> incl a b.
Proof. unfold subset_ids. rewrite forallb_forall. split; intros H x I; apply mem_id_in, H, I. Qed.

(* re-init: accepted exactly when old and new group have the same members, whatever the trees look like *)
Theorem reinit_iff_same_members old_tree new_tree :
  NoDup (members_of old_tree) -> NoDup (members_of new_tree) ->
  (subgroup_ok Reinit old_tree new_tree = true <->
   (forall id, In id (members_of new_tree) <-> In id (members_of old_tree))).
Proof.
  intros No Nn. unfold subgroup_ok. rewrite andb_true_iff, Nat.eqb_eq, subset_incl. split.
  - (* a duplicate-free list included in another one of the same length has the same elements *)
    intros [L I] id. split; [apply I|]. apply (NoDup_length_incl Nn); [rewrite L; apply le_n|exact I].
  - intro H. split.
    + apply Nat.le_antisymm; apply NoDup_incl_length; try assumption; intros x Ix; apply H; exact Ix.
    + intros x Ix. apply H. exact Ix.
Qed.

(* branch: accepted exactly when the new members are among the old ones *)
Theorem branch_iff_subset old_tree new_tree :
  subgroup_ok Branch old_tree new_tree = true <-> incl (members_of new_tree) (members_of old_tree).
Proof. unfold subgroup_ok. apply subset_incl. Qed.

(* blank leaves do not matter: only the identities of the occupied leaves enter the rule *)
Lemma members_from_blank_app t k : forall b, members_from (t ++ repeat None k) b = members_from t b.
Proof.
  induction t as [|x r IH]; intro b; cbn [app members_from].
  - revert b. induction k as [|k IHk]; intro b; cbn [repeat members_from]; [reflexivity|]. rewrite IHk. destruct b; reflexivity.
  - rewrite IH. reflexivity.
Qed.

(* the rule of mls-rs before its fix (node counts compared): the same two members, old tree with a blank leaf in the middle -> refused *)
Example old_rule_refuted :
  let old_tree := [Some (Leaf 1); None; None; None; Some (Leaf 3)] in
  let new_tree := [Some (Leaf 1); None; Some (Leaf 3)] in
  members_of old_tree = members_of new_tree /\ subgroup_ok_old Reinit old_tree new_tree = false /\ subgroup_ok Reinit old_tree new_tree = true.
Proof. vm_compute. repeat split; reflexivity. Qed.

Theorem join_params_iff typ e g :
  join_params_ok typ e g = true <->
  pr_version g = pr_version e /\ pr_suite g = pr_suite e /\ (typ = Reinit -> pr_gid g = pr_gid e) /\ pr_ext g = pr_ext e /\ pr_epoch g = 1.
Proof.
  unfold join_params_ok. rewrite !andb_true_iff, !N.eqb_eq. destruct typ; split.
  - intros ((((A & B) & C) & D) & E). apply N.eqb_eq in C. repeat split; try assumption. intros _. exact C.
  - intros (A & B & C & D & E). repeat split; try assumption. apply N.eqb_eq. apply C. reflexivity.
  - intros ((((A & B) & _) & D) & E). repeat split; try assumption. discriminate.
  - intros (A & B & _ & D & E). repeat split; try assumption.
Qed.
