(* The joiner-side bookkeeping of a Welcome as translated from the source (Gen/WelcomeGen.v) is the
   key package store model and the secret position that the theorems of C07 are about (Model/Join.v). *)
From Coq Require Import NArith List.
From MlsV Require Import Join WelcomeGen.
Import ListNotations.
Local Open Scope N_scope.

Theorem gen_joiner_secret_position_is_model l : gen_joiner_secret_position l = joiner_secret_position l.
Proof. reflexivity. Qed.

(* a Welcome addressed to one key package *)
Theorem gen_k_join_is_model s r last_resort : gen_k_join s [r] last_resort = k_join s r last_resort.
Proof. unfold gen_k_join, k_join. cbn [find]. destruct (has r (kps s)); [destruct last_resort; reflexivity|reflexivity]. Qed.

(* a Welcome addressed to several: the FIRST reference that is in the store decides, as for the model
   applied to that reference *)
Theorem gen_k_join_first s refs last_resort r :
  find (fun x => has x (kps s)) refs = Some r -> gen_k_join s refs last_resort = k_join s r last_resort.
Proof.
  intro F. unfold gen_k_join, k_join. rewrite F. apply find_some in F. destruct F as [_ H]. rewrite H.
  destruct last_resort; reflexivity.
Qed.
Theorem gen_k_join_none s refs last_resort :
  (forall r, In r refs -> has r (kps s) = false) -> gen_k_join s refs last_resort = None.
Proof.
  intro H. unfold gen_k_join. destruct (find (fun x => has x (kps s)) refs) as [r|] eqn:F; [|reflexivity].
  apply find_some in F. destruct F as [I Hr]. rewrite (H r I) in Hr. discriminate.
Qed.

(* the write: the same store as the model's, and writing again changes nothing *)
Lemma del_del r l : del r (del r l) = del r l.
Proof.
  unfold del. induction l as [|x l IH]; [reflexivity|]. cbn [filter]. destruct (negb (x =? r)) eqn:E; cbn [filter]; [rewrite E, IH; reflexivity|exact IH].
Qed.
Theorem gen_k_write_is_model s : kps (gen_k_write s) = kps (k_write s).
Proof. unfold gen_k_write, k_write. destruct (pending_rm s); reflexivity. Qed.
Theorem gen_k_write_again s : kps (gen_k_write (gen_k_write s)) = kps (gen_k_write s).
Proof. unfold gen_k_write. destruct (pending_rm s) as [r|] eqn:E; cbn [pending_rm kps]; [apply del_del|rewrite E; reflexivity]. Qed.

Lemma translated_welcome s r lr l :
  gen_joiner_secret_position l = joiner_secret_position l /\ gen_k_join s [r] lr = k_join s r lr /\
  kps (gen_k_write s) = kps (k_write s) /\ kps (gen_k_write (gen_k_write s)) = kps (gen_k_write s).
Proof. split; [reflexivity|]. split; [apply gen_k_join_is_model|]. split; [apply gen_k_write_is_model|apply gen_k_write_again]. Qed.
