(* The translated parent-hash walk (Gen/ParentHashGen.v, from tree_kem/parent_hash.rs) is the model
   (Model/ParentHashCode.v) that is proved to compute the valid parent hashes. *)
From Coq Require Import List.
From MlsV Require Import ParentHashCode ParentHashGen.
Import ListNotations.
Local Open Scope N_scope.

Lemma gen_ph_loop_is_model PH t c : forall nodes d h, gen_ph_loop PH t c nodes d h = ph_loop PH t c nodes d h.
Proof. reflexivity. Qed.

Theorem gen_parent_hash_code_is_model : forall PH enc t c d index,
  gen_parent_hash_for_leaf PH t c d index = parent_hash_for_leaf PH t c d index /\
  gen_update_parent_hashes PH enc t c d index = update_parent_hashes PH enc t c d index.
Proof.
  intros. split; [unfold gen_parent_hash_for_leaf, parent_hash_for_leaf|unfold gen_update_parent_hashes, update_parent_hashes]; f_equal.
Qed.
