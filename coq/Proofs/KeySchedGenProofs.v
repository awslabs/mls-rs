(* The KDF dataflow of the key schedule and of the PSK chain as translated from
   group/key_schedule.rs and psk/secret.rs (Gen/KeySchedGen.v) is the code-shaped model
   (Model/KeyScheduleCode.v) that the theorems of C13 prove equal to the RFC 9420 formulas. *)
From Coq Require Import NArith List.
From MlsV Require Import Hkdf KeyScheduleRFC KeyScheduleCode KeySchedGen.
Import ListNotations.
Local Open Scope N_scope.

Section Translated.
  Variable H : hash_alg.

  Theorem gen_get_pre_epoch_secret_is_model psk joiner : gen_get_pre_epoch_secret H psk joiner = get_pre_epoch_secret H psk joiner.
  Proof. reflexivity. Qed.

  Theorem gen_from_epoch_secret_is_model s : gen_from_epoch_secret H s = from_epoch_secret H s.
  Proof. reflexivity. Qed.

  Theorem gen_from_joiner_is_model joiner ctx psk : gen_from_joiner H joiner ctx psk = from_joiner H joiner ctx psk.
  Proof. reflexivity. Qed.

  Theorem gen_from_key_schedule_is_model last_init commit ctx psk :
    gen_from_key_schedule H last_init commit ctx psk = from_key_schedule H last_init commit ctx psk.
  Proof. reflexivity. Qed.

  Theorem gen_get_welcome_secret_is_model joiner psk : gen_get_welcome_secret H joiner psk = get_welcome_secret H joiner psk.
  Proof. reflexivity. Qed.

  Theorem gen_export_secret_is_model e l c n : gen_export_secret H e l c n = export_secret H e l c n.
  Proof. reflexivity. Qed.

  Lemma gen_psk_loop_is_model input : forall i len s, gen_psk_loop H input i len s = psk_loop H input i len s.
  Proof. induction input as [|[id psk] r IH]; intros i len s; cbn [gen_psk_loop psk_loop]; [reflexivity|]. rewrite IH. reflexivity. Qed.

  Theorem gen_psk_calculate_is_model input : gen_psk_calculate H input = psk_calculate H input.
  Proof. unfold gen_psk_calculate, psk_calculate. apply gen_psk_loop_is_model. Qed.

  Theorem translated_key_schedule last_init commit ctx psk joiner input e l c n :
    gen_from_key_schedule H last_init commit ctx psk = from_key_schedule H last_init commit ctx psk /\
    gen_from_joiner H joiner ctx psk = from_joiner H joiner ctx psk /\
    gen_get_welcome_secret H joiner psk = get_welcome_secret H joiner psk /\
    gen_export_secret H e l c n = export_secret H e l c n /\
    gen_psk_calculate H input = psk_calculate H input.
  Proof.
    exact (conj (gen_from_key_schedule_is_model _ _ _ _) (conj (gen_from_joiner_is_model _ _ _)
          (conj (gen_get_welcome_secret_is_model _ _) (conj (gen_export_secret_is_model _ _ _ _) (gen_psk_calculate_is_model _))))).
  Qed.

  (* secret_tree.rs *)
  Theorem gen_consume_children_is_model s :
    gen_consume_children H s = (kdf_expand_with_label H s L_tree C_left None, kdf_expand_with_label H s L_tree C_right None).
  Proof. reflexivity. Qed.

  Theorem gen_ratchet_new_is_model leaf_sec hs : gen_ratchet_new H leaf_sec hs = ratchet_new H leaf_sec hs.
  Proof. destruct hs; reflexivity. Qed.

  Theorem gen_next_message_key_is_model nk nn r : gen_next_message_key H nk nn r = next_message_key H nk nn r.
  Proof. reflexivity. Qed.

  Theorem translated_secret_tree s leaf_sec hs nk nn r :
    gen_consume_children H s = (kdf_expand_with_label H s L_tree C_left None, kdf_expand_with_label H s L_tree C_right None) /\
    gen_ratchet_new H leaf_sec hs = ratchet_new H leaf_sec hs /\
    gen_next_message_key H nk nn r = next_message_key H nk nn r.
  Proof.
    exact (conj (gen_consume_children_is_model _) (conj (gen_ratchet_new_is_model _ _) (gen_next_message_key_is_model _ _ _))).
  Qed.
End Translated.
