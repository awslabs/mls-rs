(* PrivOK: every private key a member stores sits at a non-blank node of its direct path and is
   the key of that node.  Preserved by provisional_private_tree, decap and encap; established by
   update_secrets.
   Before that: private states by position, the nodes [lvl_node] of a direct path, paths and copaths by
   position ([path_nodes_nth], [copath_nodes_nth]); at the end, the member's own leaf key (position 0). *)
From Coq Require Import NArith List Bool Arith Lia.
From MlsV Require Import Res TreeMathGen TreeMathProofs Tree TreeProofs TreeWF Priv.
Import ListNotations.
Local Open Scope N_scope.

Definition PrivOK (ks : keys) (me : N) (pr : priv) : Prop :=
  forall k x, nth_error pr k = Some (Some x) -> ks (lvl_node (N.of_nat k) me) = Some x.

Lemma nth_error_mapi_from {A B} (f : nat -> A -> B) l : forall i k,
  nth_error (mapi_from f i l) k = option_map (f (i + k)%nat) (nth_error l k).
Proof.
  induction l as [|x r IH]; intros i k; cbn [mapi_from]; [destruct k; reflexivity|].
  destruct k as [|k]; cbn [nth_error option_map]; [rewrite Nat.add_0_r; reflexivity|].
  rewrite IH. replace (S i + k)%nat with (i + S k)%nat by lia. reflexivity.
Qed.

Lemma nth_error_mapi {A B} (f : nat -> A -> B) l k : nth_error (mapi f l) k = option_map (f k) (nth_error l k).
Proof. unfold mapi. rewrite nth_error_mapi_from. reflexivity. Qed.

Lemma nth_error_firstn_lt {A} (l : list A) : forall n k, (k < n)%nat -> nth_error (firstn n l) k = nth_error l k.
Proof.
  induction l as [|x r IH]; intros n k L; [rewrite firstn_nil; reflexivity|].
  destruct n as [|n]; [lia|]. cbn [firstn]. destruct k as [|k]; cbn [nth_error]; [reflexivity|]. apply IH. lia.
Qed.

Lemma resize_length pr n : length (resize pr n) = n.
Proof. unfold resize. rewrite app_length, firstn_length, repeat_length. lia. Qed.

Lemma nth_error_resize pr n k :
  nth_error (resize pr n) k = if (k <? n)%nat then Some (match nth_error pr k with Some v => v | None => None end) else None.
Proof.
  unfold resize. destruct (Nat.ltb_spec k n) as [L|L].
  - destruct (Nat.ltb_spec k (length pr)) as [Lp|Lp].
    + rewrite nth_error_app1 by (rewrite firstn_length; lia).
      rewrite nth_error_firstn_lt by exact L.
      destruct (nth_error pr k) eqn:E; [reflexivity|]. apply nth_error_None in E. lia.
    + rewrite nth_error_app2 by (rewrite firstn_length; lia). rewrite firstn_length.
      rewrite (proj2 (nth_error_None pr k)) by lia.
      rewrite nth_error_repeat; [reflexivity|]. lia.
  - apply nth_error_None. rewrite app_length, firstn_length, repeat_length. lia.
Qed.

Lemma nth_error_decap_priv pr n lca nodes k :
  nth_error (decap_priv pr n lca nodes) k =
  if (k <? n + 2)%nat
  then Some (match k with
             | O => match nth_error pr k with Some v => v | None => None end
             | S i => if (lca <=? i)%nat && (i <? length nodes)%nat then nth i nodes None
                      else match nth_error pr k with Some v => v | None => None end
             end)
  else None.
Proof.
  unfold decap_priv. rewrite nth_error_mapi, nth_error_resize.
  destruct (k <? n + 2)%nat; [destruct k|]; reflexivity.
Qed.

Lemma nth_error_encap_priv pr n flt fk leafkey k :
  nth_error (encap_priv pr n flt fk leafkey) k =
  if (k <? n + 1)%nat
  then Some (match k with
             | O => Some leafkey
             | S i => match nth_error flt i with
                      | Some false => Some (fk (N.of_nat (S i)))
                      | Some true => None
                      | None => match nth_error pr k with Some v => v | None => None end
                      end
             end)
  else None.
Proof.
  unfold encap_priv. rewrite nth_error_mapi, nth_error_resize.
  destruct (k <? n + 1)%nat; [destruct k|]; reflexivity.
Qed.

Lemma path_spec_length n : forall k j, length (path_spec n k j) = n.
Proof. induction n as [|n IH]; intros; cbn [path_spec length]; [|rewrite IH]; reflexivity. Qed.

Lemma nth_path_spec n : forall k j i, (i < n)%nat ->
  nth_error (path_spec n k j) i =
  Some (mkCopathNode (node (k + N.of_nat i + 1) (j / 2 ^ (N.of_nat i + 1))) (node (k + N.of_nat i) (sib (j / 2 ^ N.of_nat i)))).
Proof.
  induction n as [|n IH]; intros k j i L; [lia|]. cbn [path_spec].
  destruct i as [|i]; cbn [nth_error].
  - cbn [N.of_nat]. rewrite N.add_0_r, N.add_0_l, N.pow_1_r, N.pow_0_r, N.div_1_r. reflexivity.
  - rewrite of_nat_S, IH, !half_div_pow2 by lia. do 2 f_equal; f_equal; lia.
Qed.

Lemma path_spec_snoc : forall n k j, path_spec (S n) k j =
  path_spec n k j ++ [mkCopathNode (node (k + N.of_nat n + 1) (j / 2 ^ (N.of_nat n + 1))) (node (k + N.of_nat n) (sib (j / 2 ^ N.of_nat n)))].
Proof.
  induction n as [|n IH]; intros k j.
  - cbn [path_spec app N.of_nat]. rewrite N.add_0_r, N.pow_0_r, N.div_1_r, N.add_0_l, N.pow_1_r. reflexivity.
  - change (path_spec (S (S n)) k j) with (mkCopathNode (node (k + 1) (j / 2)) (node k (sib j)) :: path_spec (S n) (k + 1) (j / 2)).
    rewrite IH. cbn [path_spec app]. do 4 f_equal.
    + f_equal; [lia|]. rewrite half_div_pow2. do 2 f_equal. lia.
    + f_equal; [lia|]. rewrite half_div_pow2, N.add_1_r, <- Nat2N.inj_succ. reflexivity.
Qed.

Lemma path_nodes_nth t me d path : small t -> 2 * me <= tlen t -> total_leaf_count t = 2 ^ d -> path_nodes t me = Ok path ->
  length path = N.to_nat d /\ forall i, (i < N.to_nat d)%nat -> nth_error path i = Some (lvl_node (N.of_nat (S i)) me).
Proof.
  intros Sm L Et P. destruct (path_nodes_spec t me Sm L) as (d' & Et' & _ & _ & P' & _).
  rewrite Et in Et'. apply N.pow_inj_r in Et'; [subst d'|lia]. rewrite P in P'. injection P' as ->.
  split; [rewrite map_length; apply path_spec_length|].
  intros i Li. rewrite nth_error_map, nth_path_spec by exact Li. unfold lvl_node. cbn [option_map CopathNode_path]. do 2 f_equal; [|f_equal]; lia.
Qed.

Lemma copath_nodes_nth t me d copath : small t -> 2 * me <= tlen t -> total_leaf_count t = 2 ^ d -> copath_nodes t me = Ok copath ->
  length copath = N.to_nat d /\
  forall i, (i < N.to_nat d)%nat -> nth_error copath i = Some (node (N.of_nat i) (sib (me / 2 ^ N.of_nat i))).
Proof.
  intros Sm L Et C. destruct (path_nodes_spec t me Sm L) as (d' & Et' & _ & _ & _ & C').
  rewrite Et in Et'. apply N.pow_inj_r in Et'; [subst d'|lia]. rewrite C in C'. injection C' as ->.
  split; [rewrite map_length; apply path_spec_length|].
  intros i Li. rewrite nth_error_map, nth_path_spec by exact Li. reflexivity.
Qed.

Lemma path_nodes_levels t me path : small t -> 2 * me <= tlen t -> path_nodes t me = Ok path ->
  forall i p, nth_error path i = Some p -> p = lvl_node (N.of_nat (S i)) me.
Proof.
  intros Sm L E i p Hn. destruct (total_leaf_count_spec t Sm) as (d & Et & _).
  destruct (path_nodes_nth t me d path Sm L Et E) as [Lp At].
  rewrite At in Hn by (rewrite <- Lp; apply nth_error_Some; congruence). congruence.
Qed.

Lemma lvl_node_0 me : lvl_node 0 me = 2 * me.
Proof. unfold lvl_node. rewrite node_0, N.pow_0_r, N.div_1_r. reflexivity. Qed.

Lemma lvl_node_odd k me : 0 < k -> N.even (lvl_node k me) = false.
Proof. intro Hk. unfold lvl_node. replace k with ((k - 1) + 1) by lia. apply node_odd_S. Qed.

Lemma lvl_node_not_leaf k me l : 0 < k -> lvl_node k me <> 2 * l.
Proof. intro Hk. unfold lvl_node. replace k with ((k - 1) + 1) by lia. apply not_leaf_node_succ. Qed.

Lemma lvl_node_inj k1 a k2 b : lvl_node k1 a = lvl_node k2 b -> k1 = k2 /\ a / 2 ^ k1 = b / 2 ^ k2.
Proof. apply node_inj. Qed.

Lemma lvl_node_ancestor k me : (1 <= k)%nat -> ancestor (lvl_node (N.of_nat k) me) me.
Proof.
  intro Hk. exists (N.of_nat (k - 1)), (me / 2 ^ N.of_nat k). unfold lvl_node.
  replace (N.of_nat (k - 1) + 1) with (N.of_nat k) by lia. split; reflexivity.
Qed.

Lemma lvl_node_above a b L k : a / 2 ^ L = b / 2 ^ L -> L <= k -> lvl_node k a = lvl_node k b.
Proof.
  intros E Lk. unfold lvl_node. f_equal. replace k with (L + (k - L)) by lia.
  rewrite N.pow_add_r, <- !N.div_div by (apply N.pow_nonzero; lia). rewrite E. reflexivity.
Qed.

(* position i of the filter list stands for level lvl + i *)
Lemma path_keys_hit sndr fk ks : forall flt lvl i, nth_error flt i = Some false ->
  path_keys sndr flt lvl fk ks (lvl_node (lvl + N.of_nat i) sndr) = Some (fk (lvl + N.of_nat i)).
Proof.
  induction flt as [|f r IH]; intros lvl i Hn; [destruct i; discriminate|]. cbn [path_keys].
  destruct i as [|i]; cbn [nth_error] in Hn.
  - injection Hn as ->. cbn [N.of_nat]. rewrite N.add_0_r, N.eqb_refl. reflexivity.
  - specialize (IH (lvl + 1) i Hn). replace (lvl + 1 + N.of_nat i) with (lvl + N.of_nat (S i)) in IH by lia.
    destruct f; [exact IH|].
    destruct (N.eqb_spec (lvl_node (lvl + N.of_nat (S i)) sndr) (lvl_node lvl sndr)) as [E|_]; [|exact IH].
    apply lvl_node_inj in E. lia.
Qed.

Lemma path_keys_miss sndr fk ks x : forall flt lvl,
  (forall i, nth_error flt i = Some false -> x <> lvl_node (lvl + N.of_nat i) sndr) ->
  path_keys sndr flt lvl fk ks x = ks x.
Proof.
  induction flt as [|f r IH]; intros lvl H; cbn [path_keys]; [reflexivity|].
  assert (Hr : path_keys sndr r (lvl + 1) fk ks x = ks x).
  { apply IH. intros i Hn. replace (lvl + 1 + N.of_nat i) with (lvl + N.of_nat (S i)) by lia. exact (H (S i) Hn). }
  destruct f; [exact Hr|].
  destruct (N.eqb_spec x (lvl_node lvl sndr)) as [E|_]; [|exact Hr].
  exfalso. apply (H 0%nat eq_refl). cbn [N.of_nat]. rewrite N.add_0_r. exact E.
Qed.

Lemma keys_after_path_node ks sndr leafkey flt fk i : nth_error flt i = Some false ->
  keys_after_path ks sndr leafkey flt fk (lvl_node (N.of_nat (S i)) sndr) = Some (fk (N.of_nat (S i))).
Proof.
  intro Hf. unfold keys_after_path.
  rewrite (proj2 (N.eqb_neq _ _) (lvl_node_not_leaf (N.of_nat (S i)) sndr sndr ltac:(lia))).
  replace (N.of_nat (S i)) with (1 + N.of_nat i) by lia. apply path_keys_hit. exact Hf.
Qed.

Lemma keys_after_path_other ks sndr leafkey flt fk x :
  x <> 2 * sndr -> (forall i, nth_error flt i = Some false -> x <> lvl_node (N.of_nat (S i)) sndr) ->
  keys_after_path ks sndr leafkey flt fk x = ks x.
Proof.
  intros Nl Np. unfold keys_after_path. rewrite (proj2 (N.eqb_neq _ _) Nl). apply path_keys_miss.
  intros i Hf. replace (1 + N.of_nat i) with (N.of_nat (S i)) by lia. exact (Np i Hf).
Qed.

(* every non-filtered node of the committer's path, and its leaf, carries the fresh key *)
Theorem path_nodes_fresh ks sndr leafkey flt fk :
  keys_after_path ks sndr leafkey flt fk (2 * sndr) = Some leafkey
  /\ forall k, 1 <= k -> nth_error flt (N.to_nat (k - 1)) = Some false ->
       keys_after_path ks sndr leafkey flt fk (lvl_node k sndr) = Some (fk k).
Proof.
  split; [unfold keys_after_path; rewrite N.eqb_refl; reflexivity|].
  intros k Lk Hf. pose proof (keys_after_path_node ks sndr leafkey flt fk _ Hf) as H.
  replace (N.of_nat (S (N.to_nat (k - 1)))) with k in H by lia. exact H.
Qed.

(* the public keys of an update path as a receiver gets them (validate_update_path): entry i is
   the key of level lvl + i; filtered positions hold nothing and those at the end are dropped *)
Lemma upd_nodes_nth fk : forall flt lvl i,
  nth i (upd_nodes flt lvl fk) None = match nth_error flt i with Some false => Some (fk (lvl + N.of_nat i)) | _ => None end.
Proof.
  induction flt as [|f r IH]; intros lvl i; cbn [upd_nodes]; [destruct i; reflexivity|].
  destruct i as [|i]; cbn [nth_error].
  - destruct f; [destruct (upd_nodes r (lvl + 1) fk); reflexivity|]. cbn [nth N.of_nat]. rewrite N.add_0_r. reflexivity.
  - specialize (IH (lvl + 1) i). replace (lvl + 1 + N.of_nat i) with (lvl + N.of_nat (S i)) in IH by lia. rewrite <- IH.
    destruct f; [|reflexivity]. destruct (upd_nodes r (lvl + 1) fk); [destruct i|]; reflexivity.
Qed.

Lemma upd_nodes_length fk : forall flt lvl i, nth_error flt i = Some false -> (i < length (upd_nodes flt lvl fk))%nat.
Proof.
  induction flt as [|f r IH]; intros lvl i H; [destruct i; discriminate|]. cbn [upd_nodes].
  destruct i as [|i]; cbn [nth_error] in H.
  - injection H as ->. cbn [length]. lia.
  - specialize (IH (lvl + 1) i H). destruct f; [|cbn [length]; lia].
    destruct (upd_nodes r (lvl + 1) fk); cbn [length] in *; lia.
Qed.

Lemma keys_after_proposals_leaf ks t newleaf l : get t (2 * l) <> None ->
  keys_after_proposals ks t newleaf (2 * l) = match newleaf l with Some k => Some k | None => ks (2 * l) end.
Proof.
  intro Nb. unfold keys_after_proposals. destruct (get t (2 * l)); [|contradiction].
  rewrite N.even_mul, half_double. reflexivity.
Qed.

Lemma keys_after_proposals_parent ks t newleaf p : N.even p = false ->
  keys_after_proposals ks t newleaf p = match get t p with None => None | Some _ => ks p end.
Proof. intro O. unfold keys_after_proposals. rewrite O. reflexivity. Qed.

Theorem privok_provisional ks tprov me pr own newleaf pr' :
  PrivOK ks me pr -> small tprov -> 2 * me < tlen tprov -> get tprov (2 * me) <> None ->
  newleaf me = own ->
  provisional_priv tprov me pr own = Ok pr' ->
  PrivOK (keys_after_proposals ks tprov newleaf) me pr'.
Proof.
  intros P Sm L Nb En E. unfold provisional_priv in E. apply bind_ok in E. destruct E as (path & Ep & E).
  apply Ok_inj in E. subst pr'. intros k x Hk. rewrite nth_error_mapi, nth_error_resize in Hk.
  destruct (Nat.ltb_spec k (length path + 1)) as [Lk|]; [|discriminate]. injection Hk as Hk.
  (* an entry that is kept was a key of the node before *)
  assert (Old : match nth_error pr k with Some v => v | None => None end = Some x -> ks (lvl_node (N.of_nat k) me) = Some x).
  { intro Hold. apply P. destruct (nth_error pr k) as [v|]; [congruence|discriminate]. }
  destruct k as [|i].
  - cbn [N.of_nat] in *. rewrite lvl_node_0 in *. rewrite keys_after_proposals_leaf, En by exact Nb.
    destruct own as [key|]; [exact Hk|exact (Old Hk)].
  - destruct own as [key|]; [discriminate|]. rewrite keys_after_proposals_parent by (apply lvl_node_odd; lia).
    destruct (nth_error path i) as [p|] eqn:Hp; [|apply nth_error_None in Hp; lia].
    rewrite (path_nodes_levels tprov me path Sm ltac:(lia) Ep i p Hp) in Hk. destruct (get tprov (lvl_node _ me)); [exact (Old Hk)|discriminate].
Qed.

(* a receiver other than the committer.  L is the level of its common ancestor with the committer,
   N.to_nat (L - 1) the lca_index of the code; pathlen is not constrained *)
Theorem privok_decap ks me sndr pr pathlen L flt fk leafkey :
  PrivOK ks me pr ->
  1 <= L -> me / 2 ^ L = sndr / 2 ^ L -> (forall k, k < L -> me / 2 ^ k <> sndr / 2 ^ k) ->
  PrivOK (keys_after_path ks sndr leafkey flt fk) me
         (decap_priv pr pathlen (N.to_nat (L - 1)) (upd_nodes flt 1 fk)).
Proof.
  intros P L1 Eq Ne k x. rewrite nth_error_decap_priv. destruct (k <? pathlen + 2)%nat; [|discriminate].
  intro Hk. injection Hk as Hk.
  (* an entry that is kept belongs to a node the path has not written *)
  assert (Kept : match nth_error pr k with Some v => v | None => None end = Some x ->
                 lvl_node (N.of_nat k) me <> 2 * sndr ->
                 (forall i, nth_error flt i = Some false -> lvl_node (N.of_nat k) me <> lvl_node (N.of_nat (S i)) sndr) ->
                 keys_after_path ks sndr leafkey flt fk (lvl_node (N.of_nat k) me) = Some x).
  { intros Hold Nl Np. rewrite keys_after_path_other by assumption.
    apply P. destruct (nth_error pr k) as [v|]; [congruence|discriminate]. }
  destruct k as [|i].
  - cbn [N.of_nat] in *. rewrite lvl_node_0 in *. apply Kept; [exact Hk| |].
    + intro E. apply (Ne 0 ltac:(lia)). rewrite !N.pow_0_r, !N.div_1_r. lia.
    + intros i _ E. symmetry in E. revert E. apply lvl_node_not_leaf. lia.
  - destruct (Nat.leb_spec (N.to_nat (L - 1)) i) as [C1|C1]; cbn [andb] in Hk;
      [destruct (Nat.ltb_spec i (length (upd_nodes flt 1 fk))) as [C2|C2]|].
    + (* written by decap: a non-filtered node of the committer's path, above the common ancestor *)
      rewrite upd_nodes_nth in Hk. destruct (nth_error flt i) as [[|]|] eqn:Hf; try discriminate.
      replace (1 + N.of_nat i) with (N.of_nat (S i)) in Hk by lia. injection Hk as <-.
      rewrite (lvl_node_above me sndr L) by (assumption || lia). apply keys_after_path_node. exact Hf.
    + apply Kept; [exact Hk|apply lvl_node_not_leaf; lia|].
      intros j Hf E. apply lvl_node_inj in E. destruct E as [Ej _]. pose proof (upd_nodes_length fk flt 1 j Hf). lia.
    + apply Kept; [exact Hk|apply lvl_node_not_leaf; lia|].
      intros j _ E. apply lvl_node_inj in E. destruct E as [Ej E]. rewrite <- Ej in E. exact (Ne (N.of_nat (S i)) ltac:(lia) E).
Qed.

Theorem privok_encap ks sndr pr pathlen flt fk leafkey :
  length flt = pathlen ->
  PrivOK (keys_after_path ks sndr leafkey flt fk) sndr (encap_priv pr pathlen flt fk leafkey).
Proof.
  intros Hlen k x. rewrite nth_error_encap_priv. destruct (Nat.ltb_spec k (pathlen + 1)) as [Lk|]; [|discriminate].
  intro Hk. injection Hk as Hk. destruct k as [|i].
  - injection Hk as <-. cbn [N.of_nat]. rewrite lvl_node_0. apply path_nodes_fresh.
  - destruct (nth_error flt i) as [[|]|] eqn:Hf; [discriminate| |apply nth_error_None in Hf; lia].
    injection Hk as <-. apply keys_after_path_node. exact Hf.
Qed.

(* entry n of the list stands for level i + n + 1 *)
Lemma join_levels_nth ks me : forall jflt i lca l, join_levels ks me jflt i lca = Some l -> forall n,
  nth_error l n = match nth_error jflt n with
                  | Some f => Some (if (lca <=? i + n)%nat && negb f then ks (lvl_node (N.of_nat (S (i + n))) me) else None)
                  | None => None
                  end
  /\ (forall f, nth_error jflt n = Some f -> (lca <=? i + n)%nat && negb f = true -> ks (lvl_node (N.of_nat (S (i + n))) me) <> None).
Proof.
  induction jflt as [|f r IH]; intros i lca l E n; cbn [join_levels] in E.
  - injection E as <-. destruct n; (split; [reflexivity|discriminate]).
  - destruct (join_levels ks me r (S i) lca) as [rest|] eqn:Er; [|discriminate].
    destruct n as [|n]; cbn [nth_error].
    + rewrite Nat.add_0_r. revert E. destruct ((lca <=? i)%nat && negb f) eqn:C.
      * destruct (ks (lvl_node (N.of_nat (S i)) me)) as [y|]; [|discriminate]. intro E. injection E as <-.
        split; [reflexivity|discriminate].
      * intro E. injection E as <-. split; [reflexivity|]. intros f' Ef H. congruence.
    + replace (i + S n)%nat with (S i + n)%nat by lia. revert E.
      destruct ((lca <=? i)%nat && negb f); [destruct (ks (lvl_node (N.of_nat (S i)) me)); [|discriminate]|];
        intro E; injection E as <-; exact (IH (S i) lca rest Er n).
Qed.

Theorem privok_join ks me leafkey jflt lca pr :
  ks (2 * me) = Some leafkey -> join_priv ks me leafkey jflt lca = Some pr -> PrivOK ks me pr.
Proof.
  intros Kl Ep. unfold join_priv in Ep. destruct (join_levels ks me jflt 0 lca) as [l|] eqn:E; [|discriminate].
  injection Ep as <-. intros k x Hk. destruct k as [|k]; cbn [nth_error] in Hk.
  - cbn [N.of_nat]. rewrite lvl_node_0. congruence.
  - rewrite (proj1 (join_levels_nth ks me jflt 0 lca l E k)) in Hk. revert Hk.
    destruct (nth_error jflt k) as [f|]; [|discriminate]. destruct ((lca <=? 0 + k)%nat && negb f); cbn [Nat.add]; congruence.
Qed.

Corollary privok_no_key_for_blank ks me pr k : PrivOK ks me pr -> ks (lvl_node (N.of_nat k) me) = None -> 
  nth_error pr k = Some None \/ nth_error pr k = None.
Proof.
  intros P B. destruct (nth_error pr k) as [[x|]|] eqn:E; [|left; reflexivity|right; reflexivity].
  rewrite (P k x E) in B. discriminate.
Qed.

(* position 0 of a private state: the key of the member's own leaf *)
Lemma nth_error_mapi_resize_0 (f : nat -> option N -> option N) pr n : (0 < n)%nat ->
  nth_error (mapi f (resize pr n)) 0 = Some (f O (match nth_error pr 0 with Some v => v | None => None end)).
Proof. intro H. rewrite nth_error_mapi, nth_error_resize. destruct (Nat.ltb_spec 0 n); [reflexivity|lia]. Qed.

Lemma provisional_leaf_key t me pr own pr1 : provisional_priv t me pr own = Ok pr1 ->
  nth_error pr1 0 = Some (match own with Some key => Some key | None => match nth_error pr 0 with Some v => v | None => None end end).
Proof.
  unfold provisional_priv. intro E. apply bind_ok in E. destruct E as (path & _ & E). unfold ret in E. apply Ok_inj in E. subst pr1.
  rewrite nth_error_mapi_resize_0 by lia. destruct own; reflexivity.
Qed.

Lemma decap_keeps_leaf_key pr n lca nodes key : nth_error pr 0 = Some (Some key) -> nth_error (decap_priv pr n lca nodes) 0 = Some (Some key).
Proof. intro K. unfold decap_priv. rewrite nth_error_mapi_resize_0, K by lia. reflexivity. Qed.

Lemma join_priv_leaf_key ks me lk jflt lca pr : join_priv ks me lk jflt lca = Some pr -> nth_error pr 0 = Some (Some lk).
Proof. unfold join_priv. destruct (join_levels ks me jflt 0 lca); [|discriminate]. intro E. injection E as <-. reflexivity. Qed.
