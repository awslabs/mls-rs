(* Two rules of the proposal filter, as translated from the source, are the rules of the filter
   model (Model/Filter.v).
   path_update_required (Gen/PathReqGen.v): a commit needs an update path iff its proposal list
   is empty or holds an Update, Remove, ExternalInit or GroupContextExtensions proposal - or a
   custom proposal for which the application's rules ask for one.
   "A re-init travels alone" (Gen/ReinitGen.v): ProposalBundle::length and
   filter_out_reinit_if_other_proposals are the stage stage_reinit that C10's theorems are about. *)
From Coq Require Import Arith List Bool.
From MlsV Require Import Filter PathReqGen ReinitGen.
Import ListNotations.

Definition is_k (f : body -> bool) (l : list prop) : bool := existsb (fun p => f (p_body p)) l.

(* the bundle the library looks at, for a list of (non-local) proposals; cust = some custom
   proposal of the list requires a path according to the application's rules; the model has no
   SelfRemove proposal, so that flag is never set *)
Definition bundle_of (cust : bool) (l : list prop) : pbundle :=
  {| b_custom := cust;
     b_update := is_k (fun b => match b with BUpdate _ => true | _ => false end) l;
     b_selfremove := false;
     b_extinit := is_k (fun b => match b with BExtInit => true | _ => false end) l;
     b_gce := is_k (fun b => match b with BGce _ => true | _ => false end) l;
     b_remove := is_k (fun b => match b with BRemove _ => true | _ => false end) l;
     b_empty := match l with [] => true | _ => false end |}.

Lemma needs_path_kinds (l : list prop) :
  existsb (fun p => match p_body p with BUpdate _ | BRemove _ | BGce _ | BExtInit => true | _ => false end) l =
  is_k (fun b => match b with BUpdate _ => true | _ => false end) l
  || is_k (fun b => match b with BExtInit => true | _ => false end) l
  || is_k (fun b => match b with BGce _ => true | _ => false end) l
  || is_k (fun b => match b with BRemove _ => true | _ => false end) l.
Proof.
  unfold is_k. induction l as [|p r IH]; [reflexivity|]. cbn [existsb]. rewrite IH.
  destruct (p_body p); cbn [orb]; rewrite ?orb_true_r; reflexivity.
Qed.

Theorem gen_path_required_is_model cust l :
  gen_path_required (bundle_of cust l) = cust || needs_path l.
Proof.
  unfold gen_path_required, bundle_of, needs_path. cbn [b_custom b_update b_selfremove b_extinit b_gce b_remove b_empty].
  destruct l as [|p r]; [destruct cust; reflexivity|]. rewrite needs_path_kinds, !orb_false_r, !orb_assoc. reflexivity.
Qed.

Lemma count_kind_cons f p l : count_kind f (p :: l) = (if f (p_body p) then 1 else 0) + count_kind f l.
Proof. unfold count_kind. cbn [filter]. destruct (f (p_body p)); reflexivity. Qed.

Theorem gen_bundle_length_counts_every_proposal l : gen_bundle_length (counts_of l) = length l.
Proof.
  induction l as [|p l IH]; [reflexivity|]. cbn [length]. rewrite <- IH.
  unfold gen_bundle_length, counts_of. cbn [n_psk n_extinit n_custom n_update n_add n_remove n_reinit n_gce].
  rewrite !count_kind_cons. destruct (p_body p); cbn [Nat.add]; rewrite ?Nat.add_succ_r; reflexivity.
Qed.

Theorem gen_reinit_rule_is_model st l :
  stage_reinit st l =
  apply_reinit_verdict
    (gen_reinit_rule (match st with IgnoreByRef => true | IgnoreNone => false end)
                     (existsb (fun p => negb (p_by_ref p)) (filter is_reinit l))
                     (gen_bundle_length (counts_of l)) (n_reinit (counts_of l))) l.
Proof.
  rewrite gen_bundle_length_counts_every_proposal.
  change (n_reinit (counts_of l)) with (length (filter is_reinit l)).
  unfold stage_reinit, gen_reinit_rule.
  destruct (filter is_reinit l) as [|r re] eqn:E.
  - reflexivity.
  - cbn [length Nat.eqb negb andb]. destruct (Nat.eqb (length l) 1) eqn:L1; cbn [negb apply_reinit_verdict]; [reflexivity|].
    destruct (existsb (fun p => negb (p_by_ref p)) (r :: re)); cbn [orb]; [reflexivity|].
    destruct st; cbn [negb]; [|reflexivity].
    cbn [length]. destruct (Nat.ltb (S (length re)) (length l)); reflexivity.
Qed.
