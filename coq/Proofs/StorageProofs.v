(* The two storage providers expose the same stored history for every sequence of writes the
   repository can issue; the retention window is exactly the last R epochs; a crash returns
   the last written state; a failing storage call does not corrupt the repository; a late
   message is admitted only from the member that still holds the sender's leaf. *)
From Coq Require Import NArith Arith List Bool Lia.
From MlsV Require Import Storage.
Import ListNotations.
Local Open Scope N_scope.

Fixpoint contig_from (a : N) (l : list rec) : Prop :=
  match l with
  | [] => True
  | (i, _) :: t => i = a /\ contig_from (a + 1) t
  end.
Definition contig (l : list rec) : Prop :=
  match l with [] => True | (a, _) :: _ => contig_from a l end.

Lemma contig_iff l : contig l <-> exists a, contig_from a l.
Proof.
  destruct l as [|[i d] t]; cbn [contig].
  - split; [exists 0|]; trivial.
  - split; [intro C; exists i; exact C|intros (a & C)]. destruct C as [-> C]. split; [reflexivity|exact C].
Qed.

Lemma contig_from_app a l1 l2 :
  contig_from a (l1 ++ l2) <-> contig_from a l1 /\ contig_from (a + N.of_nat (length l1)) l2.
Proof.
  revert a. induction l1 as [|[i d] t IH]; intro a; cbn [app contig_from length].
  - rewrite N.add_0_r. tauto.
  - rewrite IH, Nat2N.inj_succ, <- N.add_1_l, N.add_assoc. tauto.
Qed.

Lemma contig_from_ids a l : contig_from a l -> forall r, In r l -> a <= fst r < a + N.of_nat (length l).
Proof.
  revert a. induction l as [|[i d] t IH]; intros a C r I; [destruct I|].
  destruct C as [-> C]. cbn [length]. destruct I as [<-|I]; cbn [fst]; [lia|].
  specialize (IH _ C r I). lia.
Qed.

Lemma contig_from_absent a l id :
  contig_from a l -> ~ a <= id < a + N.of_nat (length l) -> forall x, In x l -> fst x <> id.
Proof. intros C O x I E. apply O. rewrite <- E. exact (contig_from_ids a l C x I). Qed.

Lemma contig_from_ext a l1 l2 : map fst l1 = map fst l2 -> contig_from a l1 -> contig_from a l2.
Proof.
  revert a l2. induction l1 as [|[i d] t IH]; intros a [|[i2 d2] t2] E C; try discriminate; [exact I|].
  injection E as <- E. destruct C as [-> C]. split; [reflexivity|]. exact (IH _ _ E C).
Qed.

Lemma trim_contig R a l : contig_from a l -> contig_from (a + N.of_nat (length l - R)) (trim R l).
Proof.
  intro C. unfold trim. rewrite <- (firstn_skipn (length l - R) l) in C at 1. apply contig_from_app in C.
  rewrite firstn_length, Nat.min_l in C by lia. apply C.
Qed.

Lemma last_id_app l1 l2 :
  last_id (l1 ++ l2) = match last_id l2 with Some m => Some m | None => last_id l1 end.
Proof. unfold last_id. rewrite rev_app_distr. destruct (rev l2) as [|[i d] t]; reflexivity. Qed.

Lemma last_id_none l : last_id l = None -> l = [].
Proof.
  destruct l as [|x l] using rev_ind; [reflexivity|].
  rewrite last_id_app. destruct x. discriminate.
Qed.

Lemma contig_from_last a l m : contig_from a l -> last_id l = Some m -> m + 1 = a + N.of_nat (length l).
Proof.
  destruct l as [|[i d] l] using rev_ind; [discriminate|]. clear IHl.
  rewrite last_id_app, app_length, contig_from_app. intros [_ [-> _]] E. injection E as <-.
  cbn [length]. rewrite Nat.add_1_r, Nat2N.inj_succ, N.add_succ_r, N.add_1_r. reflexivity.
Qed.

Lemma contig_snoc l e : contig l -> (match last_id l with Some m => fst e = m + 1 | None => True end) -> contig (l ++ [e]).
Proof.
  intros C L. destruct e as [i d]. destruct (last_id l) as [m|] eqn:E.
  - apply contig_iff in C as [a C]. apply contig_iff. exists a. apply contig_from_app.
    split; [exact C|]. split; [|exact I]. rewrite <- (contig_from_last a l m C E). exact L.
  - rewrite (last_id_none l E). split; [reflexivity|exact I].
Qed.

Lemma nth_contig a l : contig_from a l -> forall k i d, nth_error l k = Some (i, d) -> i = a + N.of_nat k.
Proof.
  revert a. induction l as [|[i0 d0] t IH]; intros a C k i d; [destruct k; discriminate|].
  destruct C as [-> C]. destruct k as [|k]; cbn [nth_error].
  - intro E. injection E as <- _. rewrite N.add_0_r. reflexivity.
  - intro E. rewrite (IH _ C _ _ _ E), Nat2N.inj_succ. lia.
Qed.

Lemma find_contig a l : contig_from a l -> forall id,
  find (fun r => fst r =? id) l = if (a <=? id) then nth_error l (N.to_nat (id - a)) else None.
Proof.
  revert a. induction l as [|[i0 d0] t IH]; intros a C id; cbn [find].
  - destruct (a <=? id); [destruct (N.to_nat (id - a))|]; reflexivity.
  - destruct C as [-> C]. cbn [fst]. destruct (N.eqb_spec a id) as [->|Ne].
    + rewrite N.leb_refl, N.sub_diag. reflexivity.
    + rewrite (IH _ C). destruct (N.leb_spec a id), (N.leb_spec (a + 1) id); try lia; [|reflexivity].
      replace (id - a) with (N.succ (id - (a + 1))) by lia. rewrite N2Nat.inj_succ. reflexivity.
Qed.

Lemma epoch_agree s : contig (g_recs s) -> forall id, mem_epoch s id = sql_epoch s id.
Proof.
  intros C id. unfold mem_epoch, sql_epoch, mem_index. destruct (g_recs s) as [|[a d] t] eqn:E; [reflexivity|].
  cbn [contig] in C. rewrite (find_contig a _ C). destruct (N.ltb_spec id a), (N.leb_spec a id); try lia; reflexivity.
Qed.

Lemma mem_epoch_range a s id : contig_from a (g_recs s) ->
  (mem_epoch s id <> None <-> a <= id < a + N.of_nat (length (g_recs s))).
Proof.
  unfold mem_epoch, mem_index. intro C. destruct (g_recs s) as [|[f d] t]; [cbn; intuition lia|].
  pose proof C as [-> _]. set (l := (a, d) :: t).
  destruct (N.ltb_spec id a); [intuition lia|].
  destruct (nth_error l (N.to_nat (id - a))) as [[i d']|] eqn:En.
  - assert (N.to_nat (id - a) < length l)%nat by (apply nth_error_Some; congruence).
    split; [lia|congruence].
  - apply nth_error_None in En. split; [congruence|lia].
Qed.

Lemma sql_max_last a s : contig_from a (g_recs s) -> sql_max s = last_id (g_recs s).
Proof.
  unfold sql_max. induction (g_recs s) as [|[i d] l IH] using rev_ind; intro C; [reflexivity|].
  apply contig_from_app in C. destruct C as [C [-> _]].
  rewrite fold_left_app, (IH C), last_id_app. cbn [fold_left fst].
  destruct (last_id l) as [m|] eqn:L; [|reflexivity].
  apply (contig_from_last a) in L; [|exact C]. cbn. f_equal. lia.
Qed.

Lemma max_agree s : contig (g_recs s) -> mem_max s = sql_max s.
Proof. intro C. apply contig_iff in C as [a C]. symmetry. exact (sql_max_last a s C). Qed.

Lemma no_i64_overflow (l : list rec) : (forall r, In r l -> fst r <= i64_max) -> existsb (fun r => i64_max <? fst r) l = false.
Proof.
  intro B. apply not_true_is_false. intro X. apply existsb_exists in X. destruct X as (x & I & O).
  apply N.ltb_lt in O. specialize (B x I). lia.
Qed.

Lemma sql_inserts_contig ins : forall l a,
  contig_from a (l ++ ins) -> (forall r, In r ins -> fst r <= i64_max) -> sql_inserts l ins = SOk (l ++ ins).
Proof.
  induction ins as [|r t IH]; intros l a C B; cbn [sql_inserts]; [rewrite app_nil_r; reflexivity|].
  destruct (N.ltb_spec i64_max (fst r)) as [O|_]; [specialize (B r (or_introl eq_refl)); lia|].
  assert (Hn : has_id l (fst r) = false).
  { apply contig_from_app in C. destruct C as [C1 C2]. destruct r as [i d]. destruct C2 as [-> _]. cbn [fst].
    apply not_true_is_false. intro Hx. apply existsb_exists in Hx. destruct Hx as (x & I & E).
    apply N.eqb_eq in E. revert x I E. apply (contig_from_absent a l); [exact C1|lia]. }
  rewrite Hn, (IH (l ++ [r]) a); rewrite <- ?app_assoc; [reflexivity|exact C|].
  intros x I. apply B. right. exact I.
Qed.

Lemma sql_update_ids l r : map fst (sql_update l r) = map fst l.
Proof.
  unfold sql_update. rewrite map_map. apply map_ext. intro x.
  destruct (N.eqb_spec (fst x) (fst r)) as [E|]; [symmetry; exact E|reflexivity].
Qed.

Lemma sql_updates_ids upd : forall l, map fst (fold_left sql_update upd l) = map fst l.
Proof. induction upd as [|r t IH]; intro l; cbn [fold_left]; [reflexivity|]. rewrite IH. apply sql_update_ids. Qed.

Lemma sql_updates_contig a upd l : contig_from a l -> contig_from a (fold_left sql_update upd l).
Proof. apply contig_from_ext. symmetry. apply sql_updates_ids. Qed.

Lemma sql_updates_length upd l : length (fold_left sql_update upd l) = length l.
Proof. rewrite <- !(map_length fst). f_equal. apply sql_updates_ids. Qed.

Lemma sql_update_absent l r : (forall x, In x l -> fst x <> fst r) -> sql_update l r = l.
Proof.
  intro A. unfold sql_update. rewrite <- (map_id l) at 2. apply map_ext_in. intros x I.
  destruct (N.eqb_spec (fst x) (fst r)); [destruct (A x I); assumption|reflexivity].
Qed.

Lemma set_nth_update l : forall a i r, contig_from a l -> fst r = a + N.of_nat i -> (i < length l)%nat ->
  set_nth l i r = sql_update l r.
Proof.
  induction l as [|[i0 d0] t IH]; intros a i r C E L; [cbn in L; lia|].
  destruct C as [-> C]. unfold sql_update. cbn [map fst]. fold (sql_update t r).
  destruct (N.eqb_spec a (fst r)), i as [|i]; try lia; cbn [set_nth]; f_equal.
  - symmetry. apply sql_update_absent, (contig_from_absent (a + 1) t); [exact C|lia].
  - apply (IH (a + 1)); [exact C|lia|cbn in L; lia].
Qed.

Lemma update_agree a l r : contig_from a l -> mem_update l r = sql_update l r.
Proof.
  intro C. assert (Out : ~ a <= fst r < a + N.of_nat (length l) -> l = sql_update l r).
  { intro O. symmetry. apply sql_update_absent, (contig_from_absent a); assumption. }
  unfold mem_update, mem_index. destruct l as [|[f d] t] eqn:El; [reflexivity|]. rewrite <- El in *.
  assert (f = a) as -> by (rewrite El in C; apply C).
  destruct (N.ltb_spec (fst r) a); [apply Out; lia|].
  destruct (Nat.ltb_spec (N.to_nat (fst r - a)) (length l)); [|apply Out; lia].
  apply (set_nth_update l a); [exact C|lia|assumption].
Qed.

(* the VecDeque overwrite by index and the SQL UPDATE by id do the same to contiguous records *)
Lemma updates_agree upd : forall a l, contig_from a l -> fold_left mem_update upd l = fold_left sql_update upd l.
Proof.
  induction upd as [|r t IH]; intros a l C; cbn [fold_left]; [reflexivity|].
  rewrite (update_agree a l r C). apply (IH a).
  apply (contig_from_ext a l); [symmetry; apply sql_update_ids|exact C].
Qed.

(* the `l3` of sql_write: DELETE ... WHERE epoch_id <= c on contiguous ids removes a prefix *)
Lemma filter_skipn c l : forall a, contig_from a l ->
  filter (fun r => negb (fst r <=? c)) l = skipn (N.to_nat (c + 1 - a)) l.
Proof.
  induction l as [|[i d] t IH]; intros a C; [rewrite skipn_nil; reflexivity|].
  destruct C as [-> C]. cbn [filter fst]. rewrite (IH _ C). destruct (N.leb_spec a c); cbn [negb].
  - replace (c + 1 - a) with (N.succ (c + 1 - (a + 1))) by lia. rewrite N2Nat.inj_succ. reflexivity.
  - replace (c + 1 - a) with 0 by lia. replace (c + 1 - (a + 1)) with 0 by lia. reflexivity.
Qed.

Lemma sql_delete_is_trim R a l m : contig_from a l -> m + 1 = a + N.of_nat (length l) ->
  (if N.of_nat R <=? m then filter (fun r => negb (fst r <=? m - N.of_nat R)) l else l) = trim R l.
Proof.
  intros C E. unfold trim. destruct (N.leb_spec (N.of_nat R) m).
  - rewrite (filter_skipn _ l a C). f_equal. lia.
  - replace (length l - R)%nat with 0%nat by lia. reflexivity.
Qed.

Definition store_ok (R : nat) (s : gstore) : Prop :=
  contig (g_recs s) /\ (length (g_recs s) <= R)%nat.

Theorem write_agree R s snap ins upd :
  (0 < R)%nat -> store_ok R s -> contig (g_recs s ++ ins) ->
  (forall r, In r ins -> fst r <= i64_max) -> (forall r, In r upd -> fst r <= i64_max) ->
  exists s', mem_write R s snap ins upd = SOk s' /\ sql_write (N.of_nat R) s snap ins upd = SOk s' /\ store_ok R s'.
Proof.
  intros _ [_ Ls] Ca Bi Bu. apply contig_iff in Ca as [a Ca]. unfold mem_write, sql_write.
  rewrite (sql_inserts_contig ins _ a Ca Bi), (no_i64_overflow upd Bu), (updates_agree upd a _ Ca).
  pose proof (sql_updates_contig a upd _ Ca) as Cu.
  eexists. split; [reflexivity|]. split.
  - f_equal. f_equal. destruct (last_id ins) as [m|] eqn:Li.
    + apply (sql_delete_is_trim R a _ m Cu). rewrite sql_updates_length, app_length.
      apply contig_from_app in Ca. rewrite (contig_from_last _ ins m (proj2 Ca) Li). lia.
    + apply last_id_none in Li. subst ins. unfold trim. rewrite sql_updates_length, app_nil_r.
      replace (length (g_recs s) - R)%nat with 0%nat by lia. reflexivity.
  - split; cbn [g_recs]; [|unfold trim; rewrite skipn_length; lia].
    apply contig_iff. eexists. apply trim_contig. exact Cu.
Qed.

(* the retention window: after a write the store holds exactly the last R ids *)
Theorem window_exact R s snap ins upd s' a :
  (0 < R)%nat -> contig_from a (g_recs s ++ ins) -> g_recs s ++ ins <> [] ->
  mem_write R s snap ins upd = SOk s' ->
  let m := a + N.of_nat (length (g_recs s ++ ins)) - 1 in
  forall id, mem_epoch s' id <> None <-> (a <= id /\ m < id + N.of_nat R /\ id <= m).
Proof.
  intros _ C Ne W m id. unfold mem_write in W. rewrite (updates_agree upd a _ C) in W. injection W as <-.
  set (l0 := g_recs s ++ ins) in *. set (l2 := fold_left sql_update upd l0).
  assert (0 < length l0)%nat by (destruct l0; [congruence|cbn; lia]).
  rewrite (mem_epoch_range _ {| g_recs := trim R l2 |} id (trim_contig R a l2 (sql_updates_contig a upd l0 C))).
  cbn [g_recs]. unfold trim. rewrite skipn_length. unfold l2. rewrite sql_updates_length. subst m. lia.
Qed.

(* crash: the operations run without storage faults and a crash is a stop after any prefix of
   them; loading then returns the state of the last write that went through *)
Inductive op := OInsert (e : rec) | OGet (id : N) | OWrite (snap : N).

Definition apply_op (b : backend) (r : repo) (o : op) : repo * option N :=
  match o with
  | OInsert e => (match fst (repo_insert b r e []) with SOk r' => r' | SErr _ => r end, None)
  | OGet id => (match fst (repo_get b r id []) with SOk (_, r') => r' | SErr _ => r end, None)
  | OWrite snap => match fst (repo_write b r snap false []) with
                   | SOk r' => (r', Some snap)
                   | SErr _ => (r, None)
                   end
  end.

Fixpoint run_ops (b : backend) (r : repo) (last : option N) (ops : list op) : repo * option N :=
  match ops with
  | [] => (r, last)
  | o :: t => let '(r', w) := apply_op b r o in
              run_ops b r' (match w with Some s => Some s | None => last end) t
  end.

Lemma write_sets_snap b s snap ins upd s' : st_write b s snap ins upd = SOk s' -> g_snap s' = Some snap.
Proof.
  destruct b as [R|R]; cbn [st_write]; unfold mem_write, sql_write.
  - intros [= <-]. reflexivity.
  - destruct (sql_inserts _ _); [|discriminate]. destruct (existsb _ _); [discriminate|]. intros [= <-]. reflexivity.
Qed.

(* the inner match is find_max_id: the last pending insert, else the largest id in the store *)
Lemma repo_insert_ok b r e f r' f' : repo_insert b r e f = (SOk r', f') ->
  r' = {| pend_ins := pend_ins r ++ [e]; pend_upd := pend_upd r; store := store r |}
  /\ match (match last_id (pend_ins r) with Some m => Some m | None => st_max b (store r) end) with
     | Some m => fst e = m + 1
     | None => True
     end.
Proof.
  unfold repo_insert. destruct (last_id (pend_ins r)) as [m|].
  - destruct (N.eqb_spec (fst e) (m + 1)); intros [= <- _]. split; [reflexivity|assumption].
  - destruct (next_fault f) as [[|] f1]; [discriminate|].
    destruct (st_max b (store r)) as [m|]; [destruct (N.eqb_spec (fst e) (m + 1))|]; intros [= <- _]; split; trivial.
Qed.

Lemma repo_get_store b r id f x r' f' : repo_get b r id f = (SOk (x, r'), f') -> store r' = store r.
Proof.
  unfold repo_get. destruct (match pend_ins r with [] => None | _ => _ end).
  - intros [= _ <- _]. reflexivity.
  - destruct (find _ _) as [[i d]|]; [intros [= _ <- _]; reflexivity|].
    destruct (next_fault f) as [[|] f1]; [discriminate|].
    destruct (st_epoch b (store r) id); intros [= _ <- _]; reflexivity.
Qed.

Lemma apply_op_load b r o :
  repo_load (fst (apply_op b r o)) = match snd (apply_op b r o) with Some s => Some s | None => repo_load r end.
Proof.
  unfold repo_load. destruct o as [e|id|snap]; cbn [apply_op fst snd].
  - destruct (repo_insert b r e []) as [[r1|e1] f1] eqn:G; [|reflexivity].
    apply repo_insert_ok in G as [-> _]. reflexivity.
  - destruct (repo_get b r id []) as [[[x r1]|e1] f1] eqn:G; [|reflexivity].
    cbn [fst]. rewrite (repo_get_store _ _ _ _ _ _ _ G). reflexivity.
  - unfold repo_write. cbn [next_fault].
    destruct (st_write b (store r) snap (pend_ins r) (pend_upd r)) as [s'|e1] eqn:W; [|reflexivity].
    exact (write_sets_snap _ _ _ _ _ _ W).
Qed.

Theorem crash_returns_last_write b ops : forall r last,
  repo_load r = last -> repo_load (fst (run_ops b r last ops)) = snd (run_ops b r last ops).
Proof.
  induction ops as [|o t IH]; intros r last E; cbn [run_ops fst snd]; [exact E|].
  pose proof (apply_op_load b r o) as A. destruct (apply_op b r o) as [r' w].
  apply IH. cbn [fst snd] in A. rewrite A, E. reflexivity.
Qed.

(* a failing store write leaves the repository exactly as it was *)
Theorem write_fault_clean b r snap kp f :
  fst (repo_write b r snap kp (true :: f)) = SErr EStorageFault /\ repo_after_write b r snap kp (true :: f) = r.
Proof. unfold repo_write, repo_after_write. cbn [next_fault]. split; reflexivity. Qed.

(* a failing key package delete comes after the state has been stored and the pending epochs
   forgotten: the retry writes nothing twice and ends in the state of the fault-free run *)
Theorem kp_fault_then_retry b r snap s1 :
  st_write b (store r) snap (pend_ins r) (pend_upd r) = SOk s1 ->
  let r1 := repo_after_write b r snap true [false; true] in
  fst (repo_write b r snap true [false; true]) = SErr EKeyPackageFault
  /\ pend_ins r1 = [] /\ pend_upd r1 = [] /\ store r1 = s1
  /\ fst (repo_write b r snap true []) = SOk r1.
Proof.
  intro W. unfold repo_write, repo_after_write. cbn [next_fault]. rewrite W. cbn. repeat split; reflexivity.
Qed.

(* an error of the store write (fault or provider error) leaves the repository unchanged *)
Theorem write_error_clean b r snap kp f e :
  fst (repo_write b r snap kp f) = SErr e -> e <> EKeyPackageFault -> repo_after_write b r snap kp f = r.
Proof.
  unfold repo_write, repo_after_write. destruct (next_fault f) as [fail f1]. destruct fail; [reflexivity|].
  destruct (st_write b (store r) snap (pend_ins r) (pend_upd r)) as [s'|e']; [|reflexivity].
  destruct kp.
  - destruct (next_fault f1) as [fail2 f2]. destruct fail2; cbn [fst]; [intros [= <-] Ne; contradiction Ne; reflexivity|discriminate].
  - cbn [fst]. discriminate.
Qed.

Theorem insert_fault_clean b r e f :
  pend_ins r = [] -> repo_insert b r e (true :: f) = (SErr EStorageFault, f).
Proof. intro E. unfold repo_insert. rewrite E. reflexivity. Qed.

Theorem insert_no_storage_call_when_pending b r e f x t :
  pend_ins r = x :: t -> snd (repo_insert b r e f) = f.
Proof.
  intro E. unfold repo_insert. rewrite E. destruct (last_id (x :: t)) as [m|] eqn:L.
  - destruct (fst e =? m + 1); reflexivity.
  - apply last_id_none in L. discriminate.
Qed.

Theorem get_fault_clean b r id f :
  pend_ins r = [] -> find (fun x : N * N => fst x =? id) (pend_upd r) = None ->
  repo_get b r id (true :: f) = (SErr EStorageFault, f).
Proof. intros E F. unfold repo_get. rewrite E, F. reflexivity. Qed.

Section Repo.
  Variable R : nat.
  Hypothesis HR : (0 < R)%nat.
  (* stated for the in-memory provider; on stores with contiguous ids the SQLite one gives the
     same answers (epoch_agree, max_agree, write_agree) *)
  Let b := Mem R.

  Definition ids_ok (l : list rec) : Prop := forall x, In x l -> fst x <= i64_max.

  Definition repo_inv (r : repo) : Prop :=
    contig (g_recs (store r) ++ pend_ins r) /\ store_ok R (store r)
    /\ (forall x, In x (pend_upd r) -> mem_epoch (store r) (fst x) <> None).

  Lemma contig_app_l l1 l2 : contig (l1 ++ l2) -> contig l1.
  Proof. rewrite !contig_iff. intros (a & C). exists a. apply contig_from_app in C. apply C. Qed.

  (* insert keeps the ids contiguous: what the in-memory index arithmetic and the SQLite
     id-range deletion both rely on *)
  Theorem repo_insert_inv r e r' f f' :
    repo_inv r -> repo_insert b r e f = (SOk r', f') -> repo_inv r'.
  Proof using HR.
    intros (C & S & U) E. apply repo_insert_ok in E as [-> M].
    split; [|split; assumption]. cbn [store pend_ins]. rewrite app_assoc. apply contig_snoc; [exact C|].
    rewrite last_id_app. exact M.
  Qed.

  (* exactly which epochs a member can still read: those entered since the last write and
     those the provider retained at the last write *)
  Theorem repo_get_available r id :
    repo_inv r ->
    (exists d r', fst (repo_get b r id []) = SOk (Some d, r'))
    <-> (exists d, In (id, d) (pend_ins r)) \/ mem_epoch (store r) id <> None.
  Proof using HR.
    intros (C & _ & U). apply contig_iff in C as [a C]. apply contig_from_app in C. destruct C as [Cs Cp].
    pose proof (mem_epoch_range a (store r) id Cs) as St.
    (* the stored ids lie below m, the pending inserts start there *)
    set (m := a + N.of_nat (length (g_recs (store r)))) in *.
    assert (Pe : forall d, In (id, d) (pend_ins r) -> m <= id /\ (N.to_nat (id - m) < length (pend_ins r))%nat).
    { intros d I. pose proof (contig_from_ids _ _ Cp _ I) as B. cbn [fst] in B. lia. }
    unfold repo_get. cbn [next_fault].
    destruct (match pend_ins r with [] => None | _ => _ end) as [o|] eqn:P.
    - (* id is not below the first pending insert: the answer is the pending record at its index *)
      destruct (pend_ins r) as [|[f d0] t] eqn:Ep; [discriminate|]. pose proof Cp as [-> _].
      destruct (N.leb_spec m id); [|discriminate]. injection P as <-. rewrite <- Ep in *.
      destruct (nth_error (pend_ins r) (N.to_nat (id - m))) as [[i d]|] eqn:Nt; cbn [fst].
      + split; [intros _; left; exists d|intros _; eexists; eexists; reflexivity].
        pose proof (nth_contig _ _ Cp _ _ _ Nt). replace id with i by lia. exact (nth_error_In _ _ Nt).
      + apply nth_error_None in Nt. split; [intros (d & r' & E); discriminate|].
        intros [[d I]|X]; [apply Pe in I|apply St in X]; lia.
    - (* no pending insert has this id: the pending updates are searched, then the store *)
      assert (NP : ~ exists d, In (id, d) (pend_ins r)).
      { intros (d & I). apply Pe in I. destruct (pend_ins r) as [|[f d0] t]; [cbn in I; lia|].
        destruct Cp as [-> _]. destruct (N.leb_spec m id); [discriminate|lia]. }
      destruct (find _ (pend_upd r)) as [[i d]|] eqn:F.
      + apply find_some in F. destruct F as [I E]. apply N.eqb_eq in E. cbn [fst] in E. subst i.
        split; [intros _; right; exact (U _ I)|intros _; eexists; eexists; reflexivity].
      + cbn [st_epoch b]. destruct (mem_epoch (store r) id) as [d|]; cbn [fst].
        * split; [intros _; right; discriminate|intros _; eexists; eexists; reflexivity].
        * split; [intros (d & r' & E); discriminate|intros [X|X]; [contradiction|congruence]].
  Qed.
End Repo.

(* ---- late messages: the sender is the member now sitting at that leaf, or the message is
   refused (util.rs validate_sender_signature_key_from_prior_epoch) ---- *)
Definition late_sender_ok (old_keys cur_keys : list (option N)) (i : nat) : bool :=
  match nth i old_keys None, nth i cur_keys None with
  | Some a, Some c => a =? c
  | None, None => true
  | _, _ => false
  end.

Theorem late_sender_rule old cur i k :
  nth i old None = Some k -> (late_sender_ok old cur i = true <-> nth i cur None = Some k).
Proof.
  intro E. unfold late_sender_ok. rewrite E. destruct (nth i cur None) as [c|].
  - rewrite N.eqb_eq. split; [intros ->; reflexivity|intros [= ->]; reflexivity].
  - split; discriminate.
Qed.
