(* The store of key packages of a client that joins (Model/Join.v), and the level at which the joiner's path secret sits. *)
From Coq Require Import NArith List Bool Lia.
From MlsV Require Import TreeProofs Priv PrivProofs Join.
Import ListNotations.
Local Open Scope N_scope.

Lemma del_spec r l x : In x (del r l) <-> In x l /\ x <> r.
Proof. unfold del. rewrite filter_In, negb_true_iff, N.eqb_neq. reflexivity. Qed.

(* once the joiner has persisted its group, the package it used is gone - unless it was last-resort *)
Theorem used_package_is_deleted s r s1 :
  k_join s r false = Some s1 -> ~ In r (kps (k_write s1)) /\ forall x, x <> r -> (In x (kps (k_write s1)) <-> In x (kps s)).
Proof.
  unfold k_join. destruct (has r (kps s)) eqn:H; [|discriminate]. intro E. assert (s1 = {| kps := kps s; pending_rm := Some r |}) by congruence. subst.
  cbn [k_write pending_rm kps]. split.
  - intro I. apply del_spec in I. destruct I as [_ N]. apply N. reflexivity.
  - intros x Nx. rewrite del_spec. tauto.
Qed.

Theorem last_resort_package_is_kept s r s1 : k_join s r true = Some s1 -> kps (k_write s1) = kps s.
Proof.
  unfold k_join. destruct (has r (kps s)); [|discriminate]. intro E. assert (s1 = {| kps := kps s; pending_rm := None |}) by congruence. subst. reflexivity.
Qed.

(* a Welcome for a package that is not (any more) in the store produces no group *)
Theorem unknown_package_cannot_join s r lr : ~ In r (kps s) -> k_join s r lr = None.
Proof. intro N. unfold k_join. destruct (has r (kps s)) eqn:H; [|reflexivity]. apply existsb_eqb_in in H. contradiction. Qed.

Corollary package_is_single_use s r s1 : NoDup (kps s) ->
  k_join s r false = Some s1 -> k_join (k_write s1) r false = None.
Proof. intros _ E. apply unknown_package_cannot_join. apply (used_package_is_deleted s r s1 E). Qed.

(* until the write, nothing is deleted (a crash before the first write leaves the package usable) *)
Theorem nothing_deleted_before_write s r lr s1 : k_join s r lr = Some s1 -> kps s1 = kps s.
Proof. unfold k_join. destruct (has r (kps s)); [|discriminate]. intro E. inversion E; reflexivity. Qed.

(* the position handed to the joiner is the common ancestor: both leaves have the same ancestor
   there, and different ones below *)
Theorem joiner_secret_at_common_ancestor committer joiner L :
  1 <= L -> committer / 2 ^ L = joiner / 2 ^ L -> (forall k, k < L -> committer / 2 ^ k <> joiner / 2 ^ k) ->
  lvl_node L committer = lvl_node L joiner /\ forall k, k < L -> lvl_node k committer <> lvl_node k joiner.
Proof.
  intros L1 E N. split.
  - apply (lvl_node_above _ _ L); [exact E|lia].
  - intros k Lk Ek. apply lvl_node_inj in Ek. destruct Ek as [_ Ek]. exact (N k Lk Ek).
Qed.
