(* RFC 9420 8.4 over an idealised KDF (Model/PskIdeal.v): the PSK secret determines the list of PSKs
   - ids, values, order - and so does every epoch secret built on it; the RFC chain is this chain over
   HKDF.  At the end two facts about which PSK ids a holder can resolve (psk/resolver.rs). *)
From Coq Require Import PeanoNat NArith List Bool Lia.
From MlsV Require Import KeyScheduleRFC Hkdf PskIdeal.
Import ListNotations.
Local Open Scope N_scope.

Lemma u16be_inj a b : a < 65536 -> b < 65536 -> u16be a = u16be b -> a = b.
Proof.
  intros Ha Hb E. injection E as E1 E2.
  rewrite !N.mod_small in E1 by (apply N.div_lt_upper_bound; [discriminate|assumption]).
  rewrite (N.div_mod a 256), (N.div_mod b 256), E1, E2 by discriminate. reflexivity.
Qed.

Lemma app_same_len {A} : forall (a b x y : list A), length a = length b -> a ++ x = b ++ y -> a = b /\ x = y.
Proof.
  induction a as [|h t IH]; intros [|h' t'] x y L E; cbn [length app] in *; try discriminate.
  - split; [reflexivity|exact E].
  - injection E as -> E. injection L as L. destruct (IH t' x y L E) as [-> ->]. split; reflexivity.
Qed.

Lemma app_tail_len {A} (a b x y : list A) : length x = length y -> a ++ x = b ++ y -> a = b /\ x = y.
Proof.
  intros L E. apply app_same_len; [|exact E].
  apply (f_equal (@length A)) in E. rewrite !app_length, L in E. exact (proj1 (Nat.add_cancel_r _ _ _) E).
Qed.

(* index and count have a fixed width, so the label determines the id and both fields *)
Lemma psk_label_inj id1 id2 i1 i2 c1 c2 :
  psk_label id1 i1 c1 = psk_label id2 i2 c2 -> id1 = id2 /\ u16be i1 = u16be i2 /\ u16be c1 = u16be c2.
Proof.
  intro E. unfold psk_label in E.
  destruct (app_tail_len id1 id2 (u16be i1 ++ u16be c1) (u16be i2 ++ u16be c2) eq_refl E) as [Eid E2].
  split; [exact Eid|]. exact (app_same_len (u16be i1) (u16be i2) _ _ eq_refl E2).
Qed.

Section Ideal.
  Variable ext : list N -> list N -> list N.
  Variable xpl : list N -> list N -> list N.
  Variable xpe : list N -> list N -> list N.
  Variable zero : list N.
  (* idealised KDF: collision-free, and never producing the all-zero start value *)
  Hypothesis ext_inj : forall a b c d, ext a b = ext c d -> a = c /\ b = d.
  Hypothesis xpl_inj : forall a b c d, xpl a b = xpl c d -> a = c /\ b = d.
  Hypothesis xpe_inj : forall a b c d, xpe a b = xpe c d -> a = c /\ b = d.
  Hypothesis ext_nonzero : forall a b, ext a b <> zero.

  Lemma chain_inj count : forall l1 l2 i acc1 acc2, length l1 = length l2 ->
    chain ext xpl zero l1 i count acc1 = chain ext xpl zero l2 i count acc2 -> l1 = l2 /\ acc1 = acc2.
  Proof.
    induction l1 as [|[id1 v1] r1 IH]; intros [|[id2 v2] r2] i acc1 acc2 L E; cbn [length chain] in *; try discriminate.
    - split; [reflexivity|exact E].
    - injection L as L. destruct (IH r2 (i + 1) _ _ L E) as [-> E2].
      apply ext_inj in E2. destruct E2 as [E3 ->]. apply xpl_inj in E3. destruct E3 as [E4 E5].
      apply ext_inj in E4. destruct E4 as [_ ->].
      apply psk_label_inj in E5. destruct E5 as [-> _]. split; reflexivity.
  Qed.

  Lemma chain_snoc l id v : forall i count acc,
    chain ext xpl zero (l ++ [(id, v)]) i count acc =
    ext (xpl (ext zero v) (psk_label id (i + N.of_nat (length l)) count)) (chain ext xpl zero l i count acc).
  Proof.
    induction l as [|[id' v'] r IH]; intros i count acc; cbn [app chain length].
    - rewrite N.add_0_r. reflexivity.
    - replace (i + N.of_nat (S (length r))) with (i + 1 + N.of_nat (length r)) by lia. apply IH.
  Qed.

  Theorem psk_secret_determines_the_list l1 l2 :
    N.of_nat (length l1) < 65536 -> N.of_nat (length l2) < 65536 ->
    psk_secret_ideal ext xpl zero l1 = psk_secret_ideal ext xpl zero l2 -> l1 = l2.
  Proof using ext_inj xpl_inj xpe_inj ext_nonzero. (* xpe_inj is not used: stated for the whole idealised KDF *)
    intros B1 B2 E. unfold psk_secret_ideal in E.
    (* the outermost step of a non-empty chain is the one of the last PSK, and its label carries the count *)
    assert (Len : length l1 = length l2).
    { destruct l1 as [|[id1 v1] r1 _] using rev_ind; destruct l2 as [|[id2 v2] r2 _] using rev_ind;
        rewrite ?chain_snoc in E; cbn [chain] in E.
      - reflexivity.
      - symmetry in E. destruct (ext_nonzero _ _ E).
      - destruct (ext_nonzero _ _ E).
      - apply ext_inj in E. destruct E as [E _]. apply xpl_inj in E. destruct E as [_ E].
        apply psk_label_inj in E. destruct E as (_ & _ & E). apply u16be_inj in E; [|assumption|assumption].
        apply Nnat.Nat2N.inj. exact E. }
    rewrite Len in E. apply (chain_inj _ _ _ _ _ _ Len E).
  Qed.

  (* hence every secret of the new epoch depends on every PSK value, id (with nonce) and on their order *)
  Corollary epoch_secret_binds_the_psks joiner1 joiner2 l1 l2 ctx1 ctx2 :
    N.of_nat (length l1) < 65536 -> N.of_nat (length l2) < 65536 ->
    epoch_secret_ideal ext xpl zero xpe joiner1 l1 ctx1 = epoch_secret_ideal ext xpl zero xpe joiner2 l2 ctx2 ->
    l1 = l2 /\ joiner1 = joiner2 /\ ctx1 = ctx2.
  Proof.
    intros B1 B2 E. unfold epoch_secret_ideal in E. apply xpe_inj in E. destruct E as [E ->].
    apply ext_inj in E. destruct E as [-> E]. split; [|split; reflexivity].
    apply psk_secret_determines_the_list; assumption.
  Qed.
End Ideal.

(* the RFC chain of KeyScheduleRFC.v IS this chain over the concrete HKDF *)
Lemma rfc_chain_is_chain H psks : forall i c acc,
  psk_chain H psks i c acc =
  chain (hkdf_extract H) (fun s lc => expand_with_label H s (ascii [100;101;114;105;118;101;100;32;112;115;107]) lc (h_len H))
        (repeat 0 (h_len H)) psks i c acc.
Proof. induction psks as [|[id v] r IH]; intros i c acc; cbn [psk_chain chain]; [reflexivity|]. apply IH. Qed.

(* a holder that lacks one PSK of the list resolves nothing *)
Theorem resolve_all_none h l p : In p l -> resolve h p = None -> resolve_all h l = None.
Proof.
  induction l as [|q r IH]; intros I E; [destruct I|]. cbn [resolve_all]. destruct I as [->|I].
  - rewrite E. reflexivity.
  - rewrite (IH I E). destruct (resolve h q); reflexivity.
Qed.

(* a resumption PSK of ANOTHER group is never taken from this group's unwritten epochs *)
Theorem foreign_resumption_from_storage_only h gid epoch :
  gid <> h_gid h ->
  resolve h (PResumption gid epoch) =
    match find (fun x => (fst (fst x) =? gid) && (snd (fst x) =? epoch)) (h_stored h) with Some x => Some (snd x) | None => None end.
Proof. intro Ne. cbn [resolve]. destruct (N.eqb_spec gid (h_gid h)); [contradiction|]. reflexivity. Qed.
