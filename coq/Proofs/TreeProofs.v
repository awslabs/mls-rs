(* Structural facts about the ratchet-tree operations of Model/Tree.v, for every tree.  A property of
   trees is carried through the proposals of a commit by [batch_edit_preserves], which asks for it on
   the five elementary edits only. *)
From Coq Require Import NArith Arith List Lia.
From MlsV Require Import Res TreeMathGen TreeMathProofs Tree.
Import ListNotations.
Local Open Scope N_scope.

Lemma bind_ok {A B} (m : res A) (f : A -> res B) b : bind m f = Ok b -> exists a, m = Ok a /\ f a = Ok b.
Proof. destruct m; try discriminate. intro E. eexists; split; [reflexivity|exact E]. Qed.

Lemma tbind_ok {A B} (m : tres A) (f : A -> tres B) b : tbind m f = TOk b -> exists a, m = TOk a /\ f a = TOk b.
Proof. destruct m; try discriminate. intro E. eexists; split; [reflexivity|exact E]. Qed.

Lemma lift_ok {A} (r : res A) a : lift r = TOk a -> r = Ok a.
Proof. destruct r; try discriminate. intro E. inversion E. reflexivity. Qed.

Lemma Ok_inj {A} (a b : A) : Ok a = Ok b -> a = b.
Proof. congruence. Qed.

Lemma get_set_at t : forall i j v, get (set_at t i v) j =
  if (N.to_nat j =? i)%nat then (if (i <? length t)%nat then v else None) else get t j.
Proof.
  unfold get. induction t as [|h r IH]; intros i j v.
  - cbn [set_at length]. destruct (N.to_nat j =? i)%nat eqn:E; [|reflexivity].
    destruct (N.to_nat j); reflexivity.
  - destruct i as [|i]; cbn [set_at length].
    + destruct (N.to_nat j) as [|k] eqn:Ej; cbn [nth_error Nat.eqb]; reflexivity.
    + destruct (N.to_nat j) as [|k] eqn:Ej; cbn [nth_error Nat.eqb]; [reflexivity|].
      specialize (IH i (N.of_nat k) v). rewrite Nnat.Nat2N.id in IH. rewrite IH.
      destruct (k =? i)%nat; [|reflexivity]. destruct (Nat.ltb_spec i (length r)), (Nat.ltb_spec (S i) (S (length r))); try lia; reflexivity.
Qed.

Lemma get_beyond t i : tlen t <= i -> get t i = None.
Proof. intro L. unfold get. rewrite (proj2 (nth_error_None t (N.to_nat i))); [reflexivity|unfold tlen in L; lia]. Qed.

Lemma get_some_lt t i n : get t i = Some n -> i < tlen t.
Proof. intro E. destruct (N.lt_ge_cases i (tlen t)) as [L|G]; [exact L|]. rewrite (get_beyond t i G) in E. discriminate. Qed.

Lemma get_single id p n : get [Some (Leaf id)] p = Some n -> p = 0 /\ n = Leaf id.
Proof.
  unfold get. destruct (N.to_nat p) as [|[|m]] eqn:E; cbn [nth_error]; try discriminate. intro H. split; [lia|congruence].
Qed.

Lemma get_set t i v j : get (set t i v) j = if j =? i then (if i <? tlen t then v else None) else get t j.
Proof.
  unfold set, tlen. rewrite get_set_at. destruct (N.eqb_spec j i) as [->|Ne].
  - rewrite Nat.eqb_refl. destruct (Nat.ltb_spec (N.to_nat i) (length t)), (N.ltb_spec i (N.of_nat (length t))); try lia; reflexivity.
  - destruct (Nat.eqb_spec (N.to_nat j) (N.to_nat i)); [lia|reflexivity].
Qed.

Lemma get_set_same t i v : i < tlen t -> get (set t i v) i = v.
Proof. intro L. rewrite get_set, N.eqb_refl. destruct (N.ltb_spec i (tlen t)); [reflexivity|lia]. Qed.

Lemma get_set_hit t i v n : get (set t i v) i = Some n -> v = Some n.
Proof. rewrite get_set, N.eqb_refl. destruct (i <? tlen t); [exact id|discriminate]. Qed.

Lemma get_set_other t i j v : i <> j -> get (set t i v) j = get t j.
Proof. intro Ne. rewrite get_set. destruct (N.eqb_spec j i); [congruence|reflexivity]. Qed.

Lemma get_set_none t n i : get (set t n None) i = if i =? n then None else get t i.
Proof. rewrite get_set. destruct (i =? n); [destruct (n <? tlen t)|]; reflexivity. Qed.

Lemma get_blank_nodes ns : forall t i, get (blank_nodes t ns) i = if existsb (N.eqb i) ns then None else get t i.
Proof.
  induction ns as [|n r IH]; intros t i; cbn [blank_nodes existsb]; [reflexivity|].
  rewrite IH, get_set_none. destruct (i =? n), (existsb (N.eqb i) r); reflexivity.
Qed.

Lemma existsb_eqb_in i ns : existsb (N.eqb i) ns = true <-> In i ns.
Proof.
  rewrite existsb_exists. split; [intros (y & I & E); apply N.eqb_eq in E; subst; exact I|].
  intro I. exists i. split; [exact I|apply N.eqb_refl].
Qed.

Lemma get_blank_nodes_in ns t i : In i ns -> get (blank_nodes t ns) i = None.
Proof. intro I. rewrite get_blank_nodes, (proj2 (existsb_eqb_in i ns) I). reflexivity. Qed.

Lemma get_blank_nodes_notin ns t i : ~ In i ns -> get (blank_nodes t ns) i = get t i.
Proof.
  intro Ni. rewrite get_blank_nodes. destruct (existsb (N.eqb i) ns) eqn:E; [|reflexivity].
  apply existsb_eqb_in in E. contradiction.
Qed.

Lemma get_app_blank t k i : get (t ++ repeat None k) i = get t i.
Proof.
  unfold get. destruct (Nat.lt_ge_cases (N.to_nat i) (length t)) as [L|G].
  - rewrite nth_error_app1 by exact L. reflexivity.
  - rewrite nth_error_app2 by exact G. rewrite (proj2 (nth_error_None t (N.to_nat i)) G).
    destruct (nth_error (repeat None k) (N.to_nat i - length t)) as [o|] eqn:E; [|reflexivity].
    apply nth_error_In in E. apply repeat_spec in E. subst o. reflexivity.
Qed.

(* what the update path does at a path node *)
Lemma get_set_padded t p v x : get (set (t ++ repeat None (N.to_nat p + 1 - length t)) p v) x = if x =? p then v else get t x.
Proof.
  destruct (N.eqb_spec x p) as [->|Ne].
  - apply get_set_same. unfold tlen. rewrite app_length, repeat_length. lia.
  - rewrite get_set_other by congruence. apply get_app_blank.
Qed.

Lemma set_at_length t : forall i v, length (set_at t i v) = length t.
Proof. induction t as [|h r IH]; intros [|i] v; cbn [set_at length]; try reflexivity. rewrite IH. reflexivity. Qed.

Lemma set_length t i v : tlen (set t i v) = tlen t.
Proof. unfold tlen, set. rewrite set_at_length. reflexivity. Qed.

Lemma blank_nodes_length ns : forall t, tlen (blank_nodes t ns) = tlen t.
Proof. induction ns as [|n r IH]; intro t; cbn [blank_nodes]; [reflexivity|]. rewrite IH. apply set_length. Qed.

Lemma insert_leaf_set t l n : exists t0,
  insert_leaf t l n = set t0 (2 * l) (Some n) /\ (forall i, get t0 i = get t i) /\ tlen t <= tlen t0 <= tlen t + 2.
Proof.
  unfold insert_leaf. destruct (tlen t <? 2 * l).
  - exists (t ++ repeat None 2). split; [reflexivity|]. split; [intro i; apply get_app_blank|].
    unfold tlen. rewrite app_length. cbn [length repeat]. lia.
  - destruct (N.eqb_spec (tlen t) 0) as [E|]; [|exists t; split; [reflexivity|]; split; [reflexivity|lia]].
    exists [None]. destruct t; [|cbn in E; lia]. split; [reflexivity|]. split; [|cbn; lia].
    intro i. unfold get. destruct (N.to_nat i) as [|[|m]]; reflexivity.
Qed.

Lemma insert_leaf_length t l n : tlen t <= tlen (insert_leaf t l n) <= tlen t + 2.
Proof. destruct (insert_leaf_set t l n) as (t0 & -> & _ & L). rewrite set_length. exact L. Qed.

Lemma insert_leaf_get t l n i : i <> 2 * l -> get (insert_leaf t l n) i = get t i.
Proof. intro Ne. destruct (insert_leaf_set t l n) as (t0 & -> & E & _). rewrite get_set_other by congruence. apply E. Qed.

Lemma insert_leaf_at t l n : 2 * l < tlen (insert_leaf t l n) -> get (insert_leaf t l n) (2 * l) = Some n.
Proof. destruct (insert_leaf_set t l n) as (t0 & -> & _). rewrite set_length. apply get_set_same. Qed.

Lemma update_unmerged_length path : forall t leaf t', update_unmerged t leaf path = TOk t' -> tlen t' = tlen t.
Proof.
  induction path as [|p r IH]; intros t leaf t'; cbn [update_unmerged]; [intro E; inversion E; reflexivity|].
  destruct (get t p) as [[id|um]|]; try (apply IH).
  destruct (insert_sorted leaf um); [|discriminate]. intro E. apply IH in E. rewrite E. apply set_length.
Qed.

Lemma in_insert_sorted x l l' : insert_sorted x l = Some l' -> forall y, In y l' <-> y = x \/ In y l.
Proof.
  assert (Head : forall r y, In y (x :: r) <-> y = x \/ In y r).
  { intros r y. cbn [In]. split; (intros [E|I]; [left; symmetry; exact E|right; exact I]). }
  revert l'. induction l as [|h r IH]; intros l'; cbn [insert_sorted]; [intro E; injection E as <-; apply Head|].
  destruct (N.eqb_spec x h); [discriminate|]. destruct (x <? h); [intro E; injection E as <-; apply Head|].
  destruct (insert_sorted x r) as [r'|]; [|discriminate]. intro E. injection E as <-. intro y. cbn [In]. rewrite (IH r' eq_refl).
  split; (intros [E|[E|I]]; [right; left; exact E|left; exact E|right; right; exact I]).
Qed.

(* node by node: nothing changes off the path; a parent on it gets the leaf into its list *)
Lemma update_unmerged_get path : forall t leaf t', update_unmerged t leaf path = TOk t' -> forall n,
  (~ In n path -> get t' n = get t n) /\
  match get t n with
  | Some (Par um) => exists um', get t' n = Some (Par um') /\ forall y, In y um' <-> In y um \/ (y = leaf /\ In n path)
  | o => get t' n = o
  end.
Proof.
  induction path as [|p r IH]; intros t leaf t' U n; cbn [update_unmerged] in U.
  { injection U as <-. split; [reflexivity|]. destruct (get t n) as [[x|um]|]; try reflexivity.
    exists um. split; [reflexivity|]. intro y. split; [left; assumption|intros [H|[_ []]]; exact H]. }
  (* the step writes nothing, or a longer list at the parent p *)
  assert (Step : exists t1, update_unmerged t1 leaf r = TOk t' /\ (forall m, m <> p -> get t1 m = get t m) /\
            match get t p with
            | Some (Par um) => exists um1, get t1 p = Some (Par um1) /\ forall y, In y um1 <-> y = leaf \/ In y um
            | o => get t1 p = o
            end).
  { destruct (get t p) as [[x|um]|] eqn:G; try (exists t; rewrite G; repeat split; assumption).
    destruct (insert_sorted leaf um) as [um1|] eqn:Is; [|discriminate].
    exists (set t p (Some (Par um1))). split; [exact U|]. split; [intros m Ne; apply get_set_other; congruence|].
    exists um1. split; [apply get_set_same; eapply get_some_lt; exact G|exact (in_insert_sorted _ _ _ Is)]. }
  destruct Step as (t1 & U1 & Off & At). destruct (IH _ _ _ U1 n) as [A B]. split.
  - intro Ni. rewrite A by (intro I; apply Ni; right; exact I). apply Off. intro E. apply Ni. left. congruence.
  - destruct (N.eq_dec n p) as [->|Ne].
    + destruct (get t p) as [[x|um]|]; [rewrite At in B; exact B| |rewrite At in B; exact B].
      destruct At as (um1 & G1 & M1). rewrite G1 in B. destruct B as (um' & G' & M'). exists um'. split; [exact G'|].
      intro y. rewrite M', M1. cbn [In]. split.
      * intros [[E|I]|[E I]]; [right; split; [exact E|left; reflexivity]|left; exact I|right; split; [exact E|right; exact I]].
      * intros [I|[E _]]; [left; right; exact I|left; left; exact E].
    + rewrite (Off n Ne) in B. destruct (get t n) as [[x|um]|]; try exact B.
      destruct B as (um' & G' & M'). exists um'. split; [exact G'|]. intro y. rewrite M'. cbn [In]. split.
      * intros [I|[E I]]; [left; exact I|right; split; [exact E|right; exact I]].
      * intros [I|[E [C|I]]]; [left; exact I|congruence|right; split; assumption].
Qed.

Lemma update_unmerged_marks path t leaf t' : update_unmerged t leaf path = TOk t' ->
  forall p um, In p path -> get t' p = Some (Par um) -> In leaf um.
Proof.
  intros U p uq Ip Gq. pose proof (proj2 (update_unmerged_get _ _ _ _ U p)) as B.
  destruct (get t p) as [[y|um]|]; [congruence| |congruence]. destruct B as (um' & G' & M).
  assert (um' = uq) by congruence. subst. apply M. right. split; [reflexivity|exact Ip].
Qed.

Definition no_trailing_blank (t : tree) : Prop :=
  match rev t with [] => True | x :: _ => x <> None end.

Lemma trim_rev_head l : match trim_rev l with [] => True | x :: _ => x <> None end.
Proof. induction l as [|[n|] r IH]; cbn [trim_rev]; [exact I|discriminate|exact IH]. Qed.

Theorem trim_no_trailing_blank t : no_trailing_blank (trim t).
Proof. unfold no_trailing_blank, trim. rewrite rev_involutive. apply trim_rev_head. Qed.

Lemma trim_rev_suffix l : exists k, l = repeat None k ++ trim_rev l.
Proof.
  induction l as [|[n|] r IH]; cbn [trim_rev]; try (exists 0%nat; reflexivity).
  destruct IH as [k E]. exists (S k). cbn [repeat app]. f_equal. exact E.
Qed.

Theorem trim_prefix t : exists k, t = trim t ++ repeat None k.
Proof.
  unfold trim. destruct (trim_rev_suffix (rev t)) as [k E]. exists k.
  rewrite <- (rev_involutive t) at 1. rewrite E at 1. rewrite rev_app_distr.
  f_equal. clear. induction k; cbn [repeat rev]; [reflexivity|]. rewrite IHk. symmetry. apply repeat_cons.
Qed.

Lemma get_trim t n : get (trim t) n = get t n.
Proof. destruct (trim_prefix t) as [k E]. rewrite E at 2. rewrite get_app_blank. reflexivity. Qed.

Lemma trim_length t : tlen (trim t) <= tlen t.
Proof. destruct (trim_prefix t) as [k E]. unfold tlen. rewrite E at 2. rewrite app_length. lia. Qed.

Lemma blank_leaf_ok t l t' : blank_leaf t l = TOk t' ->
  (exists x, get t (2 * l) = Some (Leaf x)) /\ t' = set t (2 * l) None.
Proof.
  unfold blank_leaf. destruct (get t (2 * l)) as [[x|um]|]; try discriminate.
  intro E. split; [exists x; reflexivity|congruence].
Qed.

Lemma blank_direct_path_ok t l t' : blank_direct_path t l = TOk t' ->
  exists path, path_nodes t l = Ok path /\ t' = blank_nodes t path.
Proof.
  unfold blank_direct_path. intro E. apply tbind_ok in E. destruct E as (path & P & E).
  exists path. split; [apply lift_ok; exact P|congruence].
Qed.

Lemma path_nodes_tlen t t' l : tlen t' = tlen t -> path_nodes t' l = path_nodes t l.
Proof. intro E. unfold path_nodes, total_leaf_count. rewrite E. reflexivity. Qed.

Lemma remove_ok t l t1 t2 : blank_leaf t l = TOk t1 -> blank_direct_path t1 l = TOk t2 ->
  exists x path, get t (2 * l) = Some (Leaf x) /\ path_nodes t l = Ok path /\ t2 = blank_nodes (set t (2 * l) None) path.
Proof.
  intros B D. apply blank_leaf_ok in B. destruct B as [[x G] ->].
  apply blank_direct_path_ok in D. destruct D as (path & P & ->).
  rewrite (path_nodes_tlen t) in P by apply set_length. exists x, path. repeat split; assumption.
Qed.

Lemma add_leaf_ok t id start t' idx : add_leaf t id start = TOk (t', idx) ->
  idx = next_empty_leaf t start /\ 2 * idx < tlen (insert_leaf t idx (Leaf id)) /\
  exists path, path_nodes (insert_leaf t idx (Leaf id)) idx = Ok path /\
               update_unmerged (insert_leaf t idx (Leaf id)) idx path = TOk t'.
Proof.
  unfold add_leaf. destruct (N.ltb_spec (2 * next_empty_leaf t start) (tlen (insert_leaf t (next_empty_leaf t start) (Leaf id)))) as [L|]; [|discriminate].
  cbn [negb]. intro E. apply tbind_ok in E. destruct E as (path & P & E). apply tbind_ok in E. destruct E as (t2 & U & E).
  inversion E; subst. split; [reflexivity|]. split; [exact L|]. exists path. split; [apply lift_ok; exact P|exact U].
Qed.

Lemma apply_update_path_ok t sender id t' : apply_update_path t sender id = TOk t' ->
  (exists x, get t (2 * sender) = Some (Leaf x)) /\
  exists path copath, path_nodes (set t (2 * sender) (Some (Leaf id))) sender = Ok path /\
    copath_nodes (set t (2 * sender) (Some (Leaf id))) sender = Ok copath /\
    apply_path_nodes (set t (2 * sender) (Some (Leaf id))) path copath (set t (2 * sender) (Some (Leaf id))) = Ok t'.
Proof.
  unfold apply_update_path. destruct (get t (2 * sender)) as [[x|um]|]; try discriminate.
  intro E. apply tbind_ok in E. destruct E as (path & P & E). apply tbind_ok in E. destruct E as (copath & C & E).
  split; [exists x; reflexivity|]. exists path, copath. repeat split; apply lift_ok; assumption.
Qed.

Lemma blank_leaf_length t l t' : blank_leaf t l = TOk t' -> tlen t' = tlen t.
Proof. intro B. apply blank_leaf_ok in B. destruct B as [_ ->]. apply set_length. Qed.

Lemma blank_direct_path_length t l t' : blank_direct_path t l = TOk t' -> tlen t' = tlen t.
Proof. intro B. apply blank_direct_path_ok in B. destruct B as (p & _ & ->). apply blank_nodes_length. Qed.

Lemma add_leaf_length t id start t' idx : add_leaf t id start = TOk (t', idx) -> tlen t <= tlen t' <= tlen t + 2.
Proof.
  intro A. apply add_leaf_ok in A. destruct A as (_ & _ & path & _ & U).
  rewrite (update_unmerged_length _ _ _ _ U). apply insert_leaf_length.
Qed.

(* the slot of the new leaf lies inside the new tree, so the next search may start from it *)
Lemma add_leaf_next_start t id start t' idx : add_leaf t id start = TOk (t', idx) -> 2 * idx <= tlen t' + 1.
Proof.
  intro A. apply add_leaf_ok in A. destruct A as (_ & L & path & _ & U).
  rewrite (update_unmerged_length _ _ _ _ U). lia.
Qed.

Lemma apply_path_nodes_length orig B : forall path copath t t',
  Forall (fun p => p < B) path -> tlen t <= B -> apply_path_nodes t path copath orig = Ok t' -> tlen t <= tlen t' <= B.
Proof.
  induction path as [|p pr IH]; intros copath t t' Fp Lt A; cbn [apply_path_nodes] in A; [injection A as <-; lia|].
  destruct copath as [|c cr]; [injection A as <-; lia|].
  apply bind_ok in A. destruct A as (e & _ & A). inversion Fp as [|? ? Hp Fr]; subst.
  apply (IH cr _ t' Fr) in A.
  - destruct e; [exact A|]. rewrite set_length in A. unfold tlen in *. rewrite app_length, repeat_length in A. lia.
  - destruct e; [exact Lt|]. rewrite set_length. unfold tlen in *. rewrite app_length, repeat_length. lia.
Qed.

Lemma apply_removes_cons t r rest t' : apply_removes t (r :: rest) = TOk t' ->
  exists t1 t2, blank_leaf t r = TOk t1 /\ blank_direct_path t1 r = TOk t2 /\ tlen t2 = tlen t /\ apply_removes t2 rest = TOk t'.
Proof.
  cbn [apply_removes]. intro E. apply tbind_ok in E. destruct E as (t1 & B & E). apply tbind_ok in E. destruct E as (t2 & D & E).
  exists t1, t2. repeat split; try assumption. rewrite (blank_direct_path_length _ _ _ D). exact (blank_leaf_length _ _ _ B).
Qed.

Lemma blank_paths_cons t l rest t' : blank_paths t (l :: rest) = TOk t' ->
  exists t1, blank_direct_path t l = TOk t1 /\ tlen t1 = tlen t /\ blank_paths t1 rest = TOk t'.
Proof.
  cbn [blank_paths]. intro E. apply tbind_ok in E. destruct E as (t1 & D & E).
  exists t1. repeat split; try assumption. exact (blank_direct_path_length _ _ _ D).
Qed.

Lemma apply_adds_cons t id rest start acc t' added : apply_adds t (id :: rest) start acc = TOk (t', added) ->
  exists t1 idx, add_leaf t id start = TOk (t1, idx) /\ apply_adds t1 rest idx (idx :: acc) = TOk (t', added).
Proof.
  cbn [apply_adds]. intro E. apply tbind_ok in E. destruct E as ([t1 idx] & A & E). exists t1, idx. split; assumption.
Qed.

Lemma apply_removes_length rs : forall t t', apply_removes t rs = TOk t' -> tlen t' = tlen t.
Proof.
  induction rs as [|r rest IH]; intros t t' E; [injection E as <-; reflexivity|].
  destruct (apply_removes_cons _ _ _ _ E) as (t1 & t2 & _ & _ & L & E'). rewrite (IH _ _ E'). exact L.
Qed.

Lemma apply_updates_length us : forall t t', apply_updates t us = TOk t' -> tlen t' = tlen t.
Proof.
  induction us as [|[i id] rest IH]; intros t t'; cbn [apply_updates]; intro E; [injection E as <-; reflexivity|].
  destruct (get t (2 * i)) as [[x|um]|]; try discriminate. rewrite (IH _ _ E). apply set_length.
Qed.

Lemma blank_paths_length ls : forall t t', blank_paths t ls = TOk t' -> tlen t' = tlen t.
Proof.
  induction ls as [|l rest IH]; intros t t' E; [injection E as <-; reflexivity|].
  destruct (blank_paths_cons _ _ _ _ E) as (t1 & _ & L & E'). rewrite (IH _ _ E'). exact L.
Qed.

Lemma batch_edit_ok t removes updates adds t' added : batch_edit t removes updates adds = TOk (t', added) ->
  exists t1 t2 t3 t4, apply_removes t (rev removes) = TOk t1 /\ apply_updates t1 updates = TOk t2 /\
    blank_paths t2 (map fst updates) = TOk t3 /\ apply_adds t3 adds 0 [] = TOk (t4, added) /\ t' = trim t4 /\
    tlen t1 = tlen t /\ tlen t2 = tlen t /\ tlen t3 = tlen t.
Proof.
  unfold batch_edit. intro E.
  apply tbind_ok in E. destruct E as (t1 & E1 & E). apply tbind_ok in E. destruct E as (t2 & E2 & E).
  apply tbind_ok in E. destruct E as (t3 & E3 & E). apply tbind_ok in E. destruct E as ([t4 ad] & E4 & E).
  inversion E; subst. exists t1, t2, t3, t4.
  pose proof (apply_removes_length _ _ _ E1) as L1. pose proof (apply_updates_length _ _ _ E2) as L2.
  pose proof (blank_paths_length _ _ _ E3) as L3. repeat split; try assumption; congruence.
Qed.

Lemma apply_commit_ok t removes updates adds path t' added : apply_commit t removes updates adds path = TOk (t', added) ->
  exists t1, batch_edit t removes updates adds = TOk (t1, added) /\
    match path with Some (sender, id) => apply_update_path t1 sender id = TOk t' | None => t' = t1 end.
Proof.
  unfold apply_commit. intro E. apply tbind_ok in E. destruct E as ([t1 ad] & B & E).
  destruct path as [[sender id]|].
  - apply tbind_ok in E. destruct E as (t2 & A & E). inversion E; subst. exists t1. split; assumption.
  - inversion E; subst. exists t'. split; [exact B|reflexivity].
Qed.

(* the supported size: any bound that keeps the depth within the 29 levels for which TreeMathProofs proves the u32 index
   arithmetic (left_ok, right_ok) would do; 2 ^ 25 nodes is the one chosen *)
Definition small (t : tree) : Prop := tlen t < 2 ^ 25.

Lemma small_length t t' : tlen t' = tlen t -> small t -> small t'.
Proof. unfold small. intros ->. exact id. Qed.

Lemma small_set t i v : small t -> small (set t i v).
Proof. apply small_length, set_length. Qed.

(* [G] is what the edits may assume about the length of the tree they start from: [supported] (below)
   for the properties that rest on the tree math, [fun _ => True] for those that do not *)
Section BatchEdit.
  Variable G : N -> Prop.
  Hypothesis G_le : forall a b, a <= b -> G b -> G a.
  Variable P : tree -> Prop.
  Hypothesis P_remove : forall t l t1 t2, P t -> G (tlen t) ->
    blank_leaf t l = TOk t1 -> blank_direct_path t1 l = TOk t2 -> P t2.
  Hypothesis P_set_leaf : forall t i x id, P t -> get t (2 * i) = Some (Leaf x) -> P (set t (2 * i) (Some (Leaf id))).
  Hypothesis P_blank_path : forall t l t', P t -> G (tlen t) -> 2 * l < tlen t -> blank_direct_path t l = TOk t' -> P t'.
  Hypothesis P_add : forall t id start t' idx, P t -> G (tlen t + 2) -> 2 * start <= tlen t + 1 ->
    add_leaf t id start = TOk (t', idx) -> P t'.
  Hypothesis P_trim : forall t, P t -> P (trim t).

  Lemma apply_removes_preserves rs : forall t t', P t -> G (tlen t) -> apply_removes t rs = TOk t' -> P t'.
  Proof.
    induction rs as [|r rest IH]; intros t t' Pt S E.
    - injection E as <-. exact Pt.
    - destruct (apply_removes_cons _ _ _ _ E) as (t1 & t2 & B & D & L & E').
      apply (IH t2 t'); [eapply P_remove; eassumption|rewrite L; exact S|exact E'].
  Qed.

  Lemma apply_updates_preserves us : forall t t', P t -> apply_updates t us = TOk t' ->
    P t' /\ Forall (fun l => 2 * l < tlen t) (map fst us).
  Proof.
    induction us as [|[i id] rest IH]; intros t t' Pt; cbn [apply_updates map fst]; intro E.
    - injection E as <-. split; [exact Pt|constructor].
    - destruct (get t (2 * i)) as [[x|um]|] eqn:Gi; try discriminate.
      destruct (IH _ t' (P_set_leaf t i x id Pt Gi) E) as (Pt' & F). rewrite set_length in F.
      split; [exact Pt'|constructor; [eapply get_some_lt; exact Gi|exact F]].
  Qed.

  Lemma blank_paths_preserves ls : forall t t', P t -> G (tlen t) -> Forall (fun l => 2 * l < tlen t) ls ->
    blank_paths t ls = TOk t' -> P t'.
  Proof.
    induction ls as [|l rest IH]; intros t t' Pt S F E.
    - injection E as <-. exact Pt.
    - inversion F as [|? ? Hl Fr]; subst. destruct (blank_paths_cons _ _ _ _ E) as (t1 & D & L1 & E').
      apply (IH t1 t'); [eapply P_blank_path; eassumption|rewrite L1; exact S|rewrite L1; exact Fr|exact E'].
  Qed.

  Lemma apply_adds_preserves ids : forall t start acc t' added,
    P t -> G (tlen t + 2 * N.of_nat (length ids)) -> 2 * start <= tlen t + 1 ->
    apply_adds t ids start acc = TOk (t', added) -> P t' /\ tlen t <= tlen t' <= tlen t + 2 * N.of_nat (length ids).
  Proof.
    induction ids as [|id rest IH]; intros t start acc t' added Pt S Hs E.
    - inversion E; subst. split; [exact Pt|lia].
    - destruct (apply_adds_cons _ _ _ _ _ _ _ E) as (t1 & idx & A & E'). clear E. rename E' into E. cbn [length] in S.
      pose proof (add_leaf_length _ _ _ _ _ A) as L1.
      destruct (IH t1 idx (idx :: acc) t' added) as [Pt' L'];
        [|eapply G_le; [|exact S]; lia|eapply add_leaf_next_start; exact A|exact E|].
      + eapply P_add; [exact Pt| |exact Hs|exact A]. eapply G_le; [|exact S]. lia.
      + split; [exact Pt'|cbn [length]; lia].
  Qed.

  Theorem batch_edit_preserves_upto t removes updates adds t' added :
    P t -> G (tlen t + 2 * N.of_nat (length adds)) ->
    batch_edit t removes updates adds = TOk (t', added) -> P t' /\ tlen t' <= tlen t + 2 * N.of_nat (length adds).
  Proof.
    intros Pt S B. apply batch_edit_ok in B. destruct B as (t1 & t2 & t3 & t4 & E1 & E2 & E3 & E4 & -> & L1 & L2 & L3).
    assert (S0 : G (tlen t)) by (eapply G_le; [|exact S]; lia).
    pose proof (apply_removes_preserves _ _ _ Pt S0 E1) as P1.
    destruct (apply_updates_preserves _ _ _ P1 E2) as (P2 & F2).
    pose proof (blank_paths_preserves _ t2 t3 P2 ltac:(rewrite L2; exact S0) ltac:(rewrite L2, <- L1; exact F2) E3) as P3.
    destruct (apply_adds_preserves adds t3 0 [] t4 added P3 ltac:(rewrite L3; exact S) ltac:(lia) E4) as [P4 L4].
    split; [apply P_trim; exact P4|]. pose proof (trim_length t4). lia.
  Qed.
End BatchEdit.

Definition supported (n : N) : Prop := n < 2 ^ 25.
Lemma supported_le a b : a <= b -> supported b -> supported a.
Proof. apply N.le_lt_trans. Qed.

Definition batch_edit_preserves := batch_edit_preserves_upto supported supported_le.

Lemma apply_updates_in_tree us t t' : apply_updates t us = TOk t' -> forall l, In l (map fst us) -> 2 * l < tlen t.
Proof.
  intro E. apply Forall_forall.
  exact (proj2 (apply_updates_preserves (fun _ => True) (fun _ _ _ _ _ _ => I) us t t' I E)).
Qed.

Definition kind_ok (i : N) (n : option tnode) : Prop :=
  match n with
  | None => True
  | Some (Leaf _) => N.even i = true
  | Some (Par _) => N.even i = false
  end.

Definition shape_ok (t : tree) : Prop := forall i, kind_ok i (get t i).

Lemma shape_set t i v : shape_ok t -> kind_ok i v -> shape_ok (set t i v).
Proof.
  intros S K j. rewrite get_set. destruct (N.eqb_spec j i) as [->|_]; [|apply S]. destruct (i <? tlen t); [exact K|exact I].
Qed.

Lemma shape_set_leaf t i id : shape_ok t -> shape_ok (set t (2 * i) (Some (Leaf id))).
Proof. intro S. apply shape_set; [exact S|]. cbn [kind_ok]. rewrite N.even_mul. reflexivity. Qed.

Lemma shape_single id : shape_ok [Some (Leaf id)].
Proof. intro i. destruct (get [Some (Leaf id)] i) as [n|] eqn:G; [|exact I]. destruct (get_single _ _ _ G) as [-> ->]. reflexivity. Qed.

Lemma shape_parent_slot t p id : shape_ok t -> N.even p = false -> get t p <> Some (Leaf id).
Proof. intros S O G. specialize (S p). rewrite G in S. cbn [kind_ok] in S. congruence. Qed.

Lemma shape_leaf_slot t j um : shape_ok t -> get t (2 * j) <> Some (Par um).
Proof. intros S G. specialize (S (2 * j)). rewrite G in S. cbn [kind_ok] in S. rewrite N.even_mul in S. discriminate. Qed.

Lemma leaf_of_shape t l : shape_ok t -> get t (2 * l) <> None -> exists id, get t (2 * l) = Some (Leaf id).
Proof.
  intros Sh Nb. destruct (get t (2 * l)) as [[id|um]|] eqn:G; [eexists; reflexivity|destruct (shape_leaf_slot _ _ _ Sh G)|congruence].
Qed.

Lemma shape_get_sub t t' : shape_ok t -> (forall i, get t' i = None \/ get t' i = get t i) -> shape_ok t'.
Proof. intros S H i. destruct (H i) as [E|E]; rewrite E; [exact I|apply S]. Qed.

Lemma shape_blank_nodes ns t : shape_ok t -> shape_ok (blank_nodes t ns).
Proof. intro S. apply (shape_get_sub t); [exact S|]. intro i. rewrite get_blank_nodes. destruct (existsb _ ns); auto. Qed.

Lemma shape_app_blank t k : shape_ok t -> shape_ok (t ++ repeat None k).
Proof. intro S. apply (shape_get_sub t); [exact S|]. intro i. right. apply get_app_blank. Qed.

Lemma shape_insert_leaf t l id : shape_ok t -> shape_ok (insert_leaf t l (Leaf id)).
Proof.
  intro S. destruct (insert_leaf_set t l (Leaf id)) as (t0 & -> & E & _).
  apply shape_set_leaf, (shape_get_sub t); [exact S|]. intro i. right. apply E.
Qed.

Lemma shape_update_unmerged path t leaf t' : shape_ok t -> update_unmerged t leaf path = TOk t' -> shape_ok t'.
Proof.
  intros S U i. pose proof (proj2 (update_unmerged_get _ _ _ _ U i)) as B. specialize (S i).
  destruct (get t i) as [[x|um]|]; [rewrite B; exact S|destruct B as (um' & -> & _); exact S|rewrite B; exact I].
Qed.

Lemma shape_blank_direct_path t l t' : shape_ok t -> blank_direct_path t l = TOk t' -> shape_ok t'.
Proof. intros S D. apply blank_direct_path_ok in D. destruct D as (p & _ & ->). apply shape_blank_nodes. exact S. Qed.

Lemma shape_remove t l t1 t2 : shape_ok t -> blank_leaf t l = TOk t1 -> blank_direct_path t1 l = TOk t2 -> shape_ok t2.
Proof.
  intros S B D. apply blank_leaf_ok in B. destruct B as [_ ->].
  eapply shape_blank_direct_path; [|exact D]. apply shape_set; [exact S|exact I].
Qed.

Theorem shape_add_leaf t id start t' idx : shape_ok t -> add_leaf t id start = TOk (t', idx) -> shape_ok t'.
Proof.
  intros S A. apply add_leaf_ok in A. destruct A as (_ & _ & path & _ & U).
  eapply shape_update_unmerged; [|exact U]. apply shape_insert_leaf. exact S.
Qed.

Lemma shape_trim t : shape_ok t -> shape_ok (trim t).
Proof. intros S i. rewrite get_trim. apply S. Qed.

Theorem shape_batch_edit t removes updates adds t' added :
  shape_ok t -> batch_edit t removes updates adds = TOk (t', added) -> shape_ok t' /\ no_trailing_blank t'.
Proof.
  intros S B. split; [|apply batch_edit_ok in B; destruct B as (_ & _ & _ & t4 & _ & _ & _ & _ & -> & _); apply trim_no_trailing_blank].
  refine (proj1 (batch_edit_preserves_upto (fun _ => True) (fun _ _ _ _ => I) shape_ok _ _ _ _ shape_trim t removes updates adds t' added S I B)).
  - intros t0 l t1 t2 S0 _. apply shape_remove. exact S0.
  - intros t0 i x id S0 _. apply shape_set_leaf. exact S0.
  - intros t0 l t1 S0 _ _. apply shape_blank_direct_path. exact S0.
  - intros t0 id start t1 idx S0 _ _. apply shape_add_leaf. exact S0.
Qed.

(* invariant of the doubling loop: i = 0 or the previous power 2 ^ (i - 1) was still below n *)
Lemma npow2_from_spec fuel : forall i n, n <= 2 ^ (i + N.of_nat fuel) -> (i = 0 \/ 2 ^ (i - 1) < n) ->
  exists e, npow2_from fuel (2 ^ i) n = 2 ^ e /\ n <= 2 ^ e /\ (e = 0 \/ 2 ^ (e - 1) < n).
Proof.
  induction fuel as [|f IH]; intros i n B L; cbn [npow2_from].
  - exists i. rewrite N.add_0_r in B. repeat split; assumption.
  - destruct (N.leb_spec n (2 ^ i)) as [Le|Gt].
    + exists i. repeat split; assumption.
    + rewrite <- pow2_succ.
      apply IH.
      * replace (i + 1 + N.of_nat f) with (i + N.of_nat (S f)) by lia. exact B.
      * right. replace (i + 1 - 1) with i by lia. exact Gt.
Qed.

(* 64 is the fuel of the model's loop: the width of usize *)
Lemma next_power_of_two_spec n : n <= 2 ^ 64 ->
  exists e, next_power_of_two n = 2 ^ e /\ n <= 2 ^ e /\ (e = 0 \/ 2 ^ (e - 1) < n).
Proof.
  intro B. unfold next_power_of_two. change 1 with (2 ^ 0).
  apply (npow2_from_spec 64 0 n B). left. reflexivity.
Qed.

Lemma total_leaf_count_spec t : small t ->
  exists d, total_leaf_count t = 2 ^ d /\ d <= 25 /\ tlen t / 2 + 1 <= 2 ^ d /\ (d = 0 \/ 2 ^ (d - 1) < tlen t / 2 + 1).
Proof.
  intro S. unfold small in S. unfold total_leaf_count.
  assert (Hn : tlen t / 2 + 1 <= 2 ^ 25) by (change (2 ^ 25) with 33554432 in *; assert (tlen t / 2 <= tlen t) by (apply N.div_le_upper_bound; lia); lia).
  destruct (next_power_of_two_spec (tlen t / 2 + 1)) as (e & E1 & E2 & E3).
  - change (2 ^ 64) with 18446744073709551616. change (2 ^ 25) with 33554432 in Hn. lia.
  - exists e. repeat split; try assumption.
    destruct E3 as [->|E3]; [lia|]. destruct (N.le_gt_cases e 25) as [|G]; [assumption|exfalso].
    assert (2 ^ 25 <= 2 ^ (e - 1)) by (apply N.pow_le_mono_r; lia). lia.
Qed.

Lemma total_leaf_count_pow t d : small t -> total_leaf_count t = 2 ^ d ->
  d <= 25 /\ tlen t / 2 + 1 <= 2 ^ d /\ (d = 0 \/ 2 ^ (d - 1) < tlen t / 2 + 1).
Proof.
  intros S E. destruct (total_leaf_count_spec t S) as (d' & E' & H). rewrite E in E'.
  apply N.pow_inj_r in E'; [subst d'; exact H|lia].
Qed.

Lemma total_leaf_count_unique t d : small t -> tlen t / 2 + 1 <= 2 ^ d -> (d = 0 \/ 2 ^ (d - 1) < tlen t / 2 + 1) ->
  total_leaf_count t = 2 ^ d.
Proof.
  intros Sm Up Low. destruct (total_leaf_count_spec t Sm) as (d' & E & _ & Up' & Low'). rewrite E. f_equal.
  assert (A1 : d' <= d).
  { destruct Low' as [->|H]; [lia|]. assert (X : 2 ^ (d' - 1) < 2 ^ d) by lia. apply N.pow_lt_mono_r_iff in X; lia. }
  assert (A2 : d <= d').
  { destruct Low as [->|H]; [lia|]. assert (X : 2 ^ (d - 1) < 2 ^ d') by lia. apply N.pow_lt_mono_r_iff in X; lia. }
  lia.
Qed.

Lemma leaf_below_count t d leaf : small t -> total_leaf_count t = 2 ^ d -> 2 * leaf <= tlen t -> leaf < 2 ^ d.
Proof.
  intros S E L. destruct (total_leaf_count_pow t d S E) as (_ & Hn & _).
  assert (leaf <= tlen t / 2) by (apply N.div_le_lower_bound; lia). lia.
Qed.

(* the direct path of an in-tree leaf is the structural path of C20 *)
Lemma path_nodes_spec t leaf : small t -> 2 * leaf <= tlen t ->
  exists d, total_leaf_count t = 2 ^ d /\ d <= 25 /\ leaf < 2 ^ d
    /\ path_nodes t leaf = Ok (map CopathNode_path (path_spec (N.to_nat d) 0 leaf))
    /\ copath_nodes t leaf = Ok (map CopathNode_copath (path_spec (N.to_nat d) 0 leaf)).
Proof.
  intros S L. destruct (total_leaf_count_spec t S) as (d & E & Hd & _).
  pose proof (leaf_below_count t d leaf S E L) as Hl.
  exists d. split; [exact E|]. split; [exact Hd|]. split; [exact Hl|].
  unfold path_nodes, copath_nodes. rewrite E. rewrite <- node_0.
  rewrite direct_copath_ok by (try lia; rewrite N.sub_0_r; exact Hl). cbn [bind ret]. rewrite N.sub_0_r. split; reflexivity.
Qed.

Lemma path_spec_odd n : forall k j, Forall (fun c => N.even (CopathNode_path c) = false) (path_spec n k j).
Proof.
  induction n as [|n IH]; intros k j; cbn [path_spec]; constructor; [|apply IH].
  apply node_odd_S.
Qed.

Lemma path_nodes_odd t leaf path : small t -> 2 * leaf <= tlen t -> path_nodes t leaf = Ok path ->
  Forall (fun p => N.even p = false) path.
Proof.
  intros S L E. destruct (path_nodes_spec t leaf S L) as (d & _ & _ & _ & P & _). rewrite P in E. inversion E; subst.
  apply Forall_map. apply path_spec_odd.
Qed.

(* the path update writes empty parents at odd indices: a property of trees kept by such a write is kept by the update *)
Lemma apply_path_nodes_preserves (P : tree -> Prop) orig :
  (forall t n p, P t -> N.even p = false -> P (set (t ++ repeat None n) p (Some (Par [])))) ->
  forall path copath t t', P t -> Forall (fun p => N.even p = false) path ->
  apply_path_nodes t path copath orig = Ok t' -> P t'.
Proof.
  intro Step. induction path as [|p pr IH]; intros copath t t' S F; destruct copath as [|c cr]; cbn [apply_path_nodes];
    try (intro E; inversion E; subst; exact S).
  inversion F as [|? ? Hp Fr]; subst. intro E. apply bind_ok in E. destruct E as (e & _ & E). revert E.
  apply IH; [|exact Fr]. destruct e; [exact S|]. apply Step; assumption.
Qed.

Theorem shape_apply_update_path t sender id t' :
  shape_ok t -> small t -> 2 * sender <= tlen t -> apply_update_path t sender id = TOk t' -> shape_ok t'.
Proof.
  intros S Sm L A. apply apply_update_path_ok in A. destruct A as (_ & path & cp & P & _ & A).
  eapply (apply_path_nodes_preserves shape_ok); [|apply shape_set_leaf; exact S| |exact A].
  { intros t0 n p S0 O. apply shape_set; [apply shape_app_blank; exact S0|exact O]. }
  eapply path_nodes_odd; [apply small_set; exact Sm|rewrite set_length; exact L|exact P].
Qed.

Lemma half_past a m : a <= 2 * m <= a + 1 -> (a + 1) / 2 = m.
Proof. intro H. symmetry. apply (N.div_unique _ _ _ (a + 1 - 2 * m)); lia. Qed.

Lemma next_empty_from_least fuel : forall t m, 2 * m <= tlen t + 1 -> (length t <= 2 * N.to_nat m + 2 * fuel)%nat ->
  let r := next_empty_from fuel t (2 * m) in
  m <= r /\ 2 * r <= tlen t + 1 /\ (forall l, m <= l < r -> get t (2 * l) <> None) /\ get t (2 * r) = None.
Proof.
  assert (Past : forall t m, tlen t <= 2 * m <= tlen t + 1 ->
    m <= (tlen t + 1) / 2 /\ 2 * ((tlen t + 1) / 2) <= tlen t + 1 /\
    (forall l, m <= l < (tlen t + 1) / 2 -> get t (2 * l) <> None) /\ get t (2 * ((tlen t + 1) / 2)) = None).
  { intros t m H. rewrite (half_past _ m H). split; [lia|]. split; [lia|]. split; [intros l Hl; lia|apply get_beyond; lia]. }
  induction fuel as [|f IH]; intros t m Hm Hf; cbn [next_empty_from]; [apply Past; unfold tlen in *; lia|].
  destruct (N.ltb_spec (2 * m) (tlen t)) as [Lt|Ge]; [|apply Past; lia].
  destruct (get t (2 * m)) as [x|] eqn:G.
  - replace (2 * m + 2) with (2 * (m + 1)) by lia.
    destruct (IH t (m + 1)) as (A & B & C & D); [lia|lia|]. split; [lia|]. split; [exact B|]. split; [|exact D].
    intros l Hl. destruct (N.eq_dec l m) as [->|Ne]; [rewrite G; discriminate|apply C; lia].
  - rewrite (N.mul_comm 2 m), N.div_mul by lia.
    split; [lia|]. split; [lia|]. split; [intros l Hl; lia|exact G].
Qed.

(* the search finds the least blank leaf index >= start, or the index right after the last
   leaf when there is none (start is a leaf index of the tree or the one right after it) *)
Theorem next_empty_leaf_leftmost t start : 2 * start <= tlen t + 1 ->
  let r := next_empty_leaf t start in
  start <= r
  /\ (forall l, start <= l < r -> get t (2 * l) <> None)
  /\ ((2 * r < tlen t /\ get t (2 * r) = None) \/ (r = (tlen t + 1) / 2 /\ forall l, start <= l -> 2 * l < tlen t -> get t (2 * l) <> None)).
Proof.
  intro Hs. cbv zeta. unfold next_empty_leaf.
  destruct (next_empty_from_least (S (length t)) t start Hs ltac:(lia)) as (A & B & C & D).
  set (r := next_empty_from (S (length t)) t (2 * start)) in *. split; [exact A|]. split; [exact C|].
  destruct (N.lt_ge_cases (2 * r) (tlen t)) as [L|G]; [left; split; assumption|right].
  split; [symmetry; apply half_past; lia|]. intros l Hl Hl2. apply C. lia.
Qed.

Lemma next_empty_leaf_blank t start : 2 * start <= tlen t + 1 -> get t (2 * next_empty_leaf t start) = None.
Proof. intro Hs. apply (next_empty_from_least (S (length t)) t start Hs). lia. Qed.

Theorem add_leaf_index t id start t' idx :
  add_leaf t id start = TOk (t', idx) -> idx = next_empty_leaf t start.
Proof. intro A. apply add_leaf_ok in A. apply A. Qed.
