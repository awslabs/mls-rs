(* Proofs about the GENERATED tree math (Gen/TreeMathGen.v = the image of math.rs).
   The reference is the arithmetic description of the complete in-order binary tree:
   the j-th node (from the left) of level k has index  node k j = (2j+1)*2^k - 1.
   In binary that is k ones, a zero, and j above them (node_bits).  The code finds the
   level with trailing_ones and goes to a child or to the parent by switching the bits
   k-1, k, k+1, which moves the index by a power of two (node_left, node_right).
   [lia] is slow on contexts with several hypotheses about 2^k and 2^32: most calls
   come after a [clear], and products stay folded behind [node_S]. *)
From Coq Require Import NArith Lia Bool List.
From MlsV Require Import Res TreeMathGen.
From MlsV Require Export BitsN.
Import ListNotations.
Local Open Scope N_scope.

Definition node (k j : N) : N := (2 * j + 1) * 2 ^ k - 1.

Lemma pow2_lt_mono a b : a < b -> 2 ^ a < 2 ^ b.
Proof. apply N.pow_lt_mono_r. reflexivity. Qed.

Lemma node_S k j : node k j + 1 = (2 * j + 1) * 2 ^ k.
Proof.
  unfold node. apply N.sub_add, (proj2 (N.le_succ_l 0 _)), N.mul_pos_pos; [|apply pow2_pos].
  rewrite N.add_1_r. apply N.lt_0_succ.
Qed.

Lemma node_0 j : node 0 j = 2 * j.
Proof. apply (N.add_cancel_r _ _ 1). rewrite node_S. apply N.mul_1_r. Qed.

Lemma node_succ k j : node (k + 1) j = 2 * node k j + 1.
Proof. pose proof (node_S (k + 1) j) as A. pose proof (node_S k j). rewrite pow2_succ in A. lia. Qed.

Lemma node_left k j : node (k + 1) j = node k (2 * j) + 2 ^ k.
Proof. pose proof (node_S (k + 1) j) as A. pose proof (node_S k (2 * j)). rewrite pow2_succ in A. lia. Qed.

Lemma node_right k j : node k (2 * j + 1) = node (k + 1) j + 2 ^ k.
Proof. pose proof (node_S (k + 1) j) as A. pose proof (node_S k (2 * j + 1)). rewrite pow2_succ in A. lia. Qed.

Lemma node_sibling k j : node k (2 * j + 1) = node k (2 * j) + 2 ^ (k + 1).
Proof. rewrite node_right, node_left, pow2_succ. lia. Qed.

Lemma node_bits k j i :
  N.testbit (node k j) i = (i <? k) || ((k <? i) && N.testbit j (i - (k + 1))).
Proof.
  replace (node k j) with (N.shiftl j (k + 1) + N.ones k).
  - rewrite add_shiftl_lor, N.lor_spec, testbit_shiftl, testbit_ones, orb_comm.
    + destruct (N.leb_spec (k + 1) i), (N.ltb_spec k i); try lia; reflexivity.
    + rewrite N.ones_equiv. apply N.lt_trans with (2 ^ k); [apply N.lt_pred_l, pow2_nonzero|].
      apply pow2_lt_mono, N.lt_add_pos_r, N.lt_0_1.
  - apply (N.add_cancel_r _ _ 1).
    rewrite node_S, <- N.add_assoc, N.ones_equiv, (N.add_1_r (N.pred _)), N.succ_pred by apply pow2_nonzero.
    rewrite N.shiftl_mul_pow2, pow2_succ. lia.
Qed.

Lemma node_bit_level k j : N.testbit (node k j) k = false.
Proof. rewrite node_bits, N.ltb_irrefl. reflexivity. Qed.

Lemma node_bit_above k j : N.testbit (node k (2 * j)) (k + 1) = false.
Proof.
  rewrite node_bits, N.sub_diag, N.testbit_even_0, andb_false_r, orb_false_r.
  apply N.ltb_ge. lia.
Qed.

Lemma trailing_ones_node k j : trailing_ones (node k j) = k.
Proof.
  revert j. induction k using N.peano_ind; intro j.
  - rewrite node_0. apply trailing_ones_double.
  - rewrite <- N.add_1_r, node_succ, trailing_ones_succ_double, IHk. lia.
Qed.

Lemma node_inj_level k1 j1 k2 j2 : node k1 j1 = node k2 j2 -> k1 = k2.
Proof. intro H. rewrite <- (trailing_ones_node k1 j1), <- (trailing_ones_node k2 j2), H. reflexivity. Qed.

Lemma node_inj k j k' j' : node k j = node k' j' -> k = k' /\ j = j'.
Proof.
  intro E. pose proof (node_inj_level _ _ _ _ E) as <-. split; [reflexivity|].
  assert (E' : (2 * j + 1) * 2 ^ k = (2 * j' + 1) * 2 ^ k) by (rewrite <- !node_S, E; reflexivity).
  apply N.mul_cancel_r in E'; [|apply pow2_nonzero].
  apply N.add_cancel_r, N.mul_cancel_l in E'; [exact E'|discriminate].
Qed.

Lemma node_even_0 j : N.even (node 0 j) = true.
Proof. rewrite node_0, N.even_mul. reflexivity. Qed.

Lemma node_odd_S k j : N.even (node (k + 1) j) = false.
Proof. rewrite node_succ, N.add_comm, N.even_add_mul_2. reflexivity. Qed.

Lemma not_leaf_node_succ k j l : node (k + 1) j <> 2 * l.
Proof. intro E. pose proof (node_odd_S k j) as O. rewrite E, N.even_mul in O. discriminate. Qed.

Lemma not_leaf_node (k : nat) j l : node (N.of_nat (S k)) j <> 2 * l.
Proof. rewrite of_nat_S. apply not_leaf_node_succ. Qed.

Lemma node_decomp x : exists k j, x = node k j.
Proof.
  induction x using N.binary_ind.
  - exists 0, 0. reflexivity.
  - exists 0, x. rewrite node_0, N.double_spec. reflexivity.
  - destruct IHx as (k & j & ->). exists (k + 1), j. rewrite node_succ, N.succ_double_spec. reflexivity.
Qed.

(* bound: in a tree with 2^d leaves, level k has the nodes j < 2^(d-k) *)
Lemma node_bound d k j : k <= d -> j < 2 ^ (d - k) -> node k j + 2 ^ k <= 2 ^ (d + 1) - 1.
Proof.
  intros Hk Hj. assert (H : (j + 1) * 2 ^ k <= 2 ^ (d - k) * 2 ^ k) by (apply N.mul_le_mono_r; lia).
  rewrite <- N.pow_add_r, N.sub_add in H by exact Hk.
  rewrite N.sub_1_r, pow2_succ. apply N.lt_le_pred.
  pose proof (node_S k j). pose proof (pow2_pos k). clear Hk Hj. lia.
Qed.

Lemma node_lt_two31 d k j : d <= 30 -> k <= d -> j < 2 ^ (d - k) -> node k j < 2 ^ 31.
Proof.
  intros Hd Hk Hj. pose proof (node_bound d k j Hk Hj). pose proof (pow2_pos k).
  pose proof (pow2_le_mono (d + 1) 31 ltac:(clear - Hd; lia)). clear Hd Hk Hj. lia.
Qed.

(* the nodes of the tree with 2^d leaves are exactly the indices 0 .. 2^(d+1)-2 *)
Lemma in_tree_iff d k j :
  node k j <= 2 ^ (d + 1) - 2 <-> (k <= d /\ j < 2 ^ (d - k)).
Proof.
  pose proof (pow2_pos k) as Pk. split.
  - intro H. pose proof (pow2_pos d). rewrite pow2_succ in H.
    assert (H' : (2 * j + 1) * 2 ^ k < 2 * 2 ^ d) by (rewrite <- node_S; lia).
    clear H. assert (Hk : k <= d).
    { apply N.le_ngt. intro G. apply N.le_succ_l, pow2_le_mono in G.
      rewrite <- N.add_1_r, pow2_succ in G. lia. }
    split; [exact Hk|].
    rewrite <- (N.sub_add k d), N.pow_add_r, N.mul_assoc in H' by exact Hk.
    apply N.mul_lt_mono_pos_r in H'; [clear - H'; lia|exact Pk].
  - intros [Hk Hj]. pose proof (node_bound d k j Hk Hj). clear Hk Hj. lia.
Qed.

Lemma node_root d : node d 0 = 2 ^ d - 1.
Proof. unfold node. rewrite N.mul_1_l. reflexivity. Qed.

Lemma root_pos n : 0 < n -> root n = Ok (n - 1).
Proof. intro H. unfold root. rewrite u32_sub_ok by exact (proj2 (N.le_succ_l 0 n) H). reflexivity. Qed.

(* d <= 31 says that 2^d is a u32; the subtraction of the model does not need it *)
Lemma root_ok d : d <= 31 -> root (2 ^ d) = Ok (node d 0).
Proof. intros _. rewrite root_pos by apply pow2_pos. rewrite node_root. reflexivity. Qed.

Lemma left_bits k j : N.lxor (node (k + 1) j) (2 ^ k) = node k (2 * j).
Proof. rewrite node_left. apply lxor_add_pow2, node_bit_level. Qed.

Lemma right_bits k j : N.lxor (node (k + 1) j) (3 * 2 ^ k) = node k (2 * j + 1).
Proof.
  replace (3 * 2 ^ k) with (N.lxor (2 ^ k) (2 ^ (k + 1))).
  - rewrite <- N.lxor_assoc, left_bits, node_sibling. apply lxor_pow2, node_bit_above.
  - rewrite lxor_pow2 by (apply N.pow2_bits_false; lia). rewrite pow2_succ. lia.
Qed.

Lemma left_ok k j : k <= 30 -> left_unchecked (node (k + 1) j) = Ok (node k (2 * j)).
Proof.
  intro Hk. unfold left_unchecked. rewrite trailing_ones_node.
  rewrite u32_sub_ok, N.add_sub by lia. cbn [bind].
  rewrite u32_shl_1 by lia. cbn [bind ret]. rewrite left_bits. reflexivity.
Qed.

Lemma right_ok k j : k <= 29 -> right_unchecked (node (k + 1) j) = Ok (node k (2 * j + 1)).
Proof.
  intro Hk. unfold right_unchecked. rewrite trailing_ones_node.
  rewrite u32_sub_ok, N.add_sub by lia. cbn [bind].
  rewrite u32_shl_small.
  - cbn [bind ret]. rewrite right_bits. reflexivity.
  - lia.
  - pose proof (pow2_le_mono k 29 Hk). change (2 ^ 32) with (8 * 2 ^ 29). lia.
Qed.

(* a leaf has no children: the code panics (documented in math.rs) *)
Lemma left_leaf_panics j : left_unchecked (node 0 j) = Panic.
Proof. unfold left_unchecked. rewrite trailing_ones_node. reflexivity. Qed.
Lemma right_leaf_panics j : right_unchecked (node 0 j) = Panic.
Proof. unfold right_unchecked. rewrite trailing_ones_node. reflexivity. Qed.

Definition sib (j : N) : N := if N.even j then j + 1 else j - 1.

Lemma even_odd_cases j : (N.even j = true /\ j = 2 * (j / 2)) \/ (N.even j = false /\ j = 2 * (j / 2) + 1).
Proof.
  destruct (N.Even_or_Odd j) as [[m ->]|[m ->]]; [left|right].
  - rewrite half_double, N.even_mul. split; reflexivity.
  - rewrite half_succ_double, N.add_comm, N.even_add_mul_2. split; reflexivity.
Qed.

Lemma sib_cases j : (j = 2 * (j / 2) /\ sib j = 2 * (j / 2) + 1) \/ (j = 2 * (j / 2) + 1 /\ sib j = 2 * (j / 2)).
Proof.
  unfold sib. destruct (even_odd_cases j) as [[-> E]|[-> E]]; [left|right]; (split; [exact E|]).
  - rewrite <- E. reflexivity.
  - lia.
Qed.

Lemma sib_neq j : j <> sib j.
Proof. destruct (sib_cases j) as [[E ->]|[E ->]]; lia. Qed.

(* `x & !(1 << (k+1))` makes a right child the left child of the same parent *)
Lemma clear_above k j : N.ldiff (node k j) (2 ^ (k + 1)) = node k (2 * (j / 2)).
Proof.
  destruct (N.Even_or_Odd j) as [[q ->]|[q ->]].
  - rewrite half_double. apply ldiff_pow2, node_bit_above.
  - rewrite half_succ_double, node_sibling. apply ldiff_add_pow2, node_bit_above.
Qed.

Lemma parent_bits k j :
  node k j < 2 ^ 32 ->
  N.lor (N.land (node k j) (u32_not (2 ^ (k + 1)))) (2 ^ k) = node (k + 1) (j / 2).
Proof.
  intro B. rewrite land_u32_not by exact B.
  rewrite clear_above, lor_pow2 by apply node_bit_level. symmetry. apply node_left.
Qed.

Lemma node_lt_parent k j :
  (node k j <? node (k + 1) (j / 2)) = N.even j.
Proof.
  destruct (N.Even_or_Odd j) as [[q ->]|[q ->]].
  - rewrite half_double, node_left, N.even_mul. apply N.ltb_lt, N.lt_add_pos_r, pow2_pos.
  - rewrite half_succ_double, node_right, (N.add_comm (2 * q)), N.even_add_mul_2. apply N.ltb_ge, N.le_add_r.
Qed.

(* The leaf count only serves to recognise the root. *)
Lemma parent_sibling_node n k j :
  k <= 29 -> node k j < 2 ^ 32 -> 0 < n -> node k j <> n - 1 ->
  parent_sibling (node k j) n
  = Ok (Some (mkParentSibling (node (k + 1) (j / 2)) (node k (sib j)))).
Proof.
  intros Hk B Hn NE. unfold parent_sibling. rewrite root_pos by exact Hn. cbn [bind].
  rewrite (proj2 (N.eqb_neq _ _) NE), trailing_ones_node.
  clear Hn NE. rewrite u32_add_ok by (clear B; lia). cbn [bind].
  rewrite !u32_shl_1 by (clear B; lia). cbn [bind].
  rewrite parent_bits by exact B. rewrite node_lt_parent. unfold sib.
  destruct (even_odd_cases j) as [[-> E]|[-> E]].
  - rewrite right_ok by exact Hk. cbn [bind ret]. rewrite <- E. reflexivity.
  - rewrite left_ok by (clear B; lia). cbn [bind ret].
    replace (j - 1) with (2 * (j / 2)) by (clear - E; lia). reflexivity.
Qed.

Lemma parent_sibling_ok d k j :
  d <= 30 -> k < d -> j < 2 ^ (d - k) ->
  parent_sibling (node k j) (2 ^ d)
  = Ok (Some (mkParentSibling (node (k + 1) (j / 2)) (node k (sib j)))).
Proof.
  intros Hd Hk Hj. apply parent_sibling_node.
  - clear Hj. lia.
  - apply N.lt_trans with (2 ^ 31); [|reflexivity].
    apply (node_lt_two31 d); [exact Hd|apply N.lt_le_incl, Hk|exact Hj].
  - apply pow2_pos.
  - rewrite <- node_root. intro E. apply node_inj_level in E. subst k. exact (N.lt_irrefl _ Hk).
Qed.

Lemma parent_sibling_root d : d <= 31 -> parent_sibling (node d 0) (2 ^ d) = Ok None.
Proof.
  intro Hd. unfold parent_sibling. rewrite root_ok by exact Hd. cbn [bind].
  rewrite N.eqb_refl. reflexivity.
Qed.

Lemma is_in_tree_ok d x :
  d <= 30 -> is_in_tree x (2 ^ d - 1) = Ok (x <=? 2 ^ (d + 1) - 2).
Proof.
  intro Hd. unfold is_in_tree. apply N.lt_succ_r, pow2_lt_mono in Hd.
  rewrite u32_mul_ok by (change (2 ^ 32) with (2 * 2 ^ 31); lia). cbn [bind].
  rewrite pow2_succ, N.mul_sub_distr_l. reflexivity.
Qed.

(* what direct_copath returns from node k j, bottom-up *)
Fixpoint path_spec (n : nat) (k j : N) : list CopathNode :=
  match n with
  | O => []
  | S n => mkCopathNode (node (k + 1) (j / 2)) (node k (sib j)) :: path_spec n (k + 1) (j / 2)
  end.

Lemma half_lt d k j : k < d -> j < 2 ^ (d - k) -> j / 2 < 2 ^ (d - (k + 1)).
Proof.
  intros Hk Hj. replace (d - k) with (d - (k + 1) + 1) in Hj by (clear Hj; lia).
  rewrite pow2_succ in Hj. apply N.div_lt_upper_bound; [discriminate|exact Hj].
Qed.

Lemma direct_copath_loop_ok d : d <= 30 ->
  forall (n : nat) k j fuel acc,
    k <= d -> j < 2 ^ (d - k) -> N.of_nat n = d - k -> (n < fuel)%nat ->
    direct_copath_loop1 fuel (2 ^ d) acc (node k j) = Ok (acc ++ path_spec n k j, node d 0).
Proof.
  intros Hd n. induction n as [|n IH]; intros k j [|fuel] acc Hk Hj Hn Hf;
    [inversion Hf| |inversion Hf|]; cbn [direct_copath_loop1].
  - assert (k = d) by (clear - Hk Hn; lia). subst k.
    rewrite N.sub_diag in Hj. apply N.lt_1_r in Hj. subst j.
    rewrite parent_sibling_root by (clear - Hd; lia). cbn [bind ret path_spec].
    rewrite app_nil_r. reflexivity.
  - assert (Hkd : k < d) by (clear - Hn; lia).
    rewrite (parent_sibling_ok d k j Hd Hkd Hj). cbn [bind ParentSibling_parent ParentSibling_sibling].
    rewrite IH.
    + cbn [path_spec]. rewrite <- app_assoc. reflexivity.
    + rewrite N.add_1_r. apply N.le_succ_l, Hkd.
    + apply half_lt; assumption.
    + clear - Hn. lia.
    + exact (le_S_n _ _ Hf).
Qed.

Lemma direct_copath_guard d x :
  d <= 30 ->
  direct_copath x (2 ^ d)
  = if x <=? 2 ^ (d + 1) - 2
    then bind (direct_copath_loop1 loop_fuel (2 ^ d) [] x) (fun '(path, _) => ret path)
    else Ok [].
Proof.
  intro Hd. unfold direct_copath. rewrite root_pos by apply pow2_pos. cbn [bind].
  rewrite is_in_tree_ok by exact Hd. cbn [bind].
  destruct (x <=? 2 ^ (d + 1) - 2); reflexivity.
Qed.

Lemma direct_copath_ok d k j :
  d <= 30 -> k <= d -> j < 2 ^ (d - k) ->
  direct_copath (node k j) (2 ^ d) = Ok (path_spec (N.to_nat (d - k)) k j).
Proof.
  intros Hd Hk Hj. rewrite direct_copath_guard by exact Hd.
  rewrite (proj2 (N.leb_le _ _)) by (apply in_tree_iff; split; assumption).
  rewrite (direct_copath_loop_ok d Hd (N.to_nat (d - k)) k j loop_fuel [] Hk Hj (Nnat.N2Nat.id _)).
  - reflexivity.
  - unfold loop_fuel. clear - Hd. lia.
Qed.

Lemma direct_copath_outside d x :
  d <= 30 -> 2 ^ (d + 1) - 2 < x -> direct_copath x (2 ^ d) = Ok [].
Proof.
  intros Hd Hx. rewrite direct_copath_guard by exact Hd.
  rewrite (proj2 (N.leb_gt _ _)) by exact Hx. reflexivity.
Qed.

Definition lca_level_spec (x y k : N) : Prop :=
  x / 2 ^ k = y / 2 ^ k /\ forall k', k' < k -> x / 2 ^ k' <> y / 2 ^ k'.

Lemma lca_level_spec_half x y r :
  x <> y -> lca_level_spec (x / 2) (y / 2) r -> lca_level_spec x y (r + 1).
Proof.
  intros NE [H1 H2]. split.
  - rewrite <- !half_div_pow2. exact H1.
  - intros k' Hk'. destruct (N.eq_dec k' 0) as [->|Hn0].
    + change (2 ^ 0) with 1. rewrite !N.div_1_r. exact NE.
    + replace k' with ((k' - 1) + 1) by lia. rewrite <- !half_div_pow2. apply H2. lia.
Qed.

Lemma lca_level_spec_refl x : lca_level_spec x x 0.
Proof. split; [reflexivity|]. intros k' Hk'. destruct (N.nlt_0_r _ Hk'). Qed.

Lemma lca_loop_ok :
  forall (n : nat) fuel xn yn k,
    xn < 2 ^ N.of_nat n -> yn < 2 ^ N.of_nat n -> (n < fuel)%nat -> k + N.of_nat n < 2 ^ 32 ->
    exists r, leaf_lca_level_loop1 fuel xn yn k = Ok (xn / 2 ^ r, yn / 2 ^ r, k + r)
              /\ lca_level_spec xn yn r.
Proof.
  induction n as [|n IH]; intros [|fuel] xn yn k Hx Hy Hf Hk;
    [inversion Hf| |inversion Hf|]; cbn [leaf_lca_level_loop1];
    destruct (N.eqb_spec xn yn) as [<-|NE]; cbn [negb].
  (* equal: the loop stops at once *)
  1,3: exists 0; change (2 ^ 0) with 1; rewrite N.div_1_r, N.add_0_r;
       split; [reflexivity|apply lca_level_spec_refl].
  - apply N.lt_1_r in Hx, Hy. subst. now elim NE.
  - rewrite of_nat_S in Hk. rewrite pow2_S in Hx, Hy.
    rewrite !u32_shr_ok by reflexivity. cbn [bind].
    rewrite u32_add_ok by (clear - Hk; lia). cbn [bind]. change (2 ^ 1) with 2.
    destruct (IH fuel (xn / 2) (yn / 2) (k + 1)) as (r & Hr & Hs).
    + apply N.div_lt_upper_bound; [discriminate|exact Hx].
    + apply N.div_lt_upper_bound; [discriminate|exact Hy].
    + exact (le_S_n _ _ Hf).
    + clear - Hk. lia.
    + exists (r + 1). rewrite Hr, !half_div_pow2, <- N.add_assoc, (N.add_comm 1 r).
      split; [reflexivity|apply lca_level_spec_half; assumption].
Qed.

Lemma lca_ok x y :
  x < 2 ^ 32 -> y < 2 ^ 32 ->
  exists k, leaf_lca_level x y = Ok k /\ lca_level_spec x y k.
Proof.
  intros Hx Hy. unfold leaf_lca_level.
  destruct (lca_loop_ok 32 loop_fuel x y 0 Hx Hy) as (r & Hr & Hs);
    [unfold loop_fuel; clear; lia|reflexivity|].
  exists r. rewrite Hr. split; [reflexivity|exact Hs].
Qed.

(* with a = j * 2^k the first leaf below x = node k j:  x + 1 = 2a + 2^k *)
Lemma subtree_ok k j :
  k <= 30 -> node k j + 2 ^ k < 2 ^ 32 ->
  subtree (node k j) = Ok (mkSubTree (j * 2 ^ k) ((j + 1) * 2 ^ k)).
Proof.
  intros Hk Hb. pose proof (pow2_pos k) as P.
  assert (E : node k j + 1 = 2 * (j * 2 ^ k) + 2 ^ k)
    by (rewrite node_S, N.mul_add_distr_r, N.mul_1_l, N.mul_assoc; reflexivity).
  rewrite (N.mul_add_distr_r j 1), N.mul_1_l. revert E. generalize (j * 2 ^ k). intros a E.
  unfold subtree, LeafIndex_from_node_index_unchecked, LeafIndex_next_unchecked.
  rewrite trailing_ones_node, u32_shl_1 by (clear - Hk; lia). cbn [bind].
  rewrite u32_add_ok by (clear - P Hb; lia). cbn [bind].
  rewrite E, u32_sub_ok, N.add_sub by apply N.le_add_l. cbn [bind].
  rewrite u32_shr_ok by reflexivity. cbn [bind ret].
  rewrite u32_add_ok by exact Hb. cbn [bind].
  replace (node k j + 2 ^ k) with (2 * (a + 2 ^ k - 1) + 1) by (clear - E P; lia).
  rewrite u32_shr_ok by reflexivity. cbn [bind ret].
  change (2 ^ 1) with 2. rewrite half_double, half_succ_double.
  rewrite u32_add_ok, N.sub_add by (clear - E P Hb; lia). reflexivity.
Qed.

(* leaf a lies under node k j  <->  a / 2^k = j  <->  a is in the range reported by subtree *)
Lemma leaf_range_iff k j a : j * 2 ^ k <= a < (j + 1) * 2 ^ k <-> a / 2 ^ k = j.
Proof.
  pose proof (pow2_nonzero k) as P. rewrite !(N.mul_comm _ (2 ^ k)). split.
  - intros [L U]. apply N.div_le_lower_bound in L; [|exact P].
    apply N.div_lt_upper_bound in U; [lia|exact P].
  - intros <-. rewrite N.add_1_r. split; [apply N.mul_div_le|apply N.mul_succ_div_gt]; exact P.
Qed.

Lemma leaf_index_try_from_ok v :
  LeafIndex_try_from v = Ok (if v <=? 2 ^ 24 - 1 then Some v else None).
Proof.
  unfold LeafIndex_try_from. change MAX_LEAF_INDEX with (2 ^ 24 - 1). rewrite N.ltb_antisym.
  destruct (v <=? 2 ^ 24 - 1); reflexivity.
Qed.
