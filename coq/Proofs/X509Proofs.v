(* Chain validation (Model/X509.v): sound, complete for chains in issuer order, and the rejection reasons
   as consequences. *)
From Coq Require Import NArith List Bool.
From MlsV Require Import X509.
Import ListNotations.
Local Open Scope N_scope.

Lemma anchored_trusted roots t c : time_ok t c = true -> anchored roots t c = true -> trusted roots t c.
Proof.
  intros T A. unfold anchored in A. apply existsb_exists in A. destruct A as (x & I & E).
  apply andb_true_iff in E. destruct E as [E1 E2]. eapply tr_issued; [exact T|exact E1|]. apply tr_root; assumption.
Qed.

Lemma valid_from_trusted roots t : forall leaf rest, valid_from roots t (leaf :: rest) = true -> trusted roots t leaf.
Proof.
  intros leaf rest. revert leaf. induction rest as [|p r IH]; intros leaf V; cbn [valid_from] in V;
    apply andb_true_iff in V; destruct V as [T A].
  - rewrite orb_false_r in A. apply anchored_trusted; assumption.
  - apply orb_true_iff in A. destruct A as [A|A]; [apply anchored_trusted; assumption|].
    apply andb_true_iff in A. destruct A as [A1 A2]. exact (tr_issued _ _ _ _ T A1 (IH p A2)).
Qed.

(* soundness: an accepted chain gives a leaf with a path of valid, correctly signed, CA-issued
   certificates up to a trust anchor *)
Theorem validate_sound roots t chain k :
  validate roots t chain = Some k ->
  exists leaf rest, chain = leaf :: rest /\ key leaf = k /\ trusted roots t leaf.
Proof.
  unfold validate. destruct chain as [|leaf rest]; [discriminate|].
  destruct (valid_from roots t (leaf :: rest)) eqn:V; [|discriminate]. intro E. exists leaf, rest.
  split; [reflexivity|]. split; [congruence|]. exact (valid_from_trusted _ _ _ _ V).
Qed.

(* every rejection reason of the property, as consequences *)
Theorem expired_or_not_yet_valid_leaf_rejected roots x leaf rest :
  (x < nb leaf \/ na leaf < x) -> validate roots (Some x) (leaf :: rest) = None.
Proof.
  intro H. unfold validate. cbn [valid_from]. unfold time_ok.
  assert ((nb leaf <=? x) && (x <=? na leaf) = false) as ->; [|reflexivity].
  apply andb_false_iff. destruct H; [left; apply N.leb_gt; assumption|right; apply N.leb_gt; assumption].
Qed.

Theorem validity_period_is_inclusive (leaf : cert) x :
  nb leaf <= x <= na leaf -> time_ok (Some x) leaf = true.
Proof. intros [A B]. unfold time_ok. apply andb_true_iff. split; apply N.leb_le; assumption. Qed.

Theorem trusted_needs_signature_and_ca roots t c :
  trusted roots t c -> In c roots \/ exists p, issuer c = subject p /\ signed_with c = key p /\ ca p = true /\ trusted roots t p.
Proof.
  intro T. destruct T as [c I _|c p _ Ib Tp]; [left; exact I|right].
  unfold issued_by in Ib. apply andb_true_iff in Ib. destruct Ib as [Ib C]. apply andb_true_iff in Ib. destruct Ib as [A B].
  apply N.eqb_eq in A, B. exists p. repeat split; assumption.
Qed.

Lemma valid_from_no_time roots x : forall l, valid_from roots (Some x) l = true -> valid_from roots None l = true.
Proof.
  induction l as [|c r IH]; cbn [valid_from]; [discriminate|]. intro V. apply andb_true_iff in V. destruct V as [_ A].
  cbn [time_ok andb]. apply orb_true_iff in A. apply orb_true_iff. destruct A as [A|A].
  - left. unfold anchored in *.
    apply existsb_exists in A. destruct A as (y & I & E). apply existsb_exists. exists y. split; [exact I|].
    apply andb_true_iff in E. destruct E as [E _]. rewrite E. reflexivity.
  - right. destruct r as [|p r']; [discriminate|]. apply andb_true_iff in A. destruct A as [A1 A2]. rewrite A1. cbn [andb]. apply IH. exact A2.
Qed.

Theorem no_time_means_no_expiry_check roots chain :
  forall x k, validate roots (Some x) chain = Some k -> validate roots None chain = Some k.
Proof.
  intros x k. unfold validate. destruct chain as [|leaf rest]; [discriminate|].
  destruct (valid_from roots (Some x) (leaf :: rest)) eqn:V; [|discriminate]. rewrite (valid_from_no_time _ _ _ V). intro E; exact E.
Qed.

(* completeness for chains in issuer order: a leaf followed by its issuers in order, all valid at
   t, the last one issued by a valid trust anchor, is accepted *)
Inductive ordered_path (roots : list cert) (t : option N) : list cert -> Prop :=
| op_last c : time_ok t c = true -> anchored roots t c = true -> ordered_path roots t [c]
| op_cons c p r : time_ok t c = true -> issued_by c p = true -> ordered_path roots t (p :: r) -> ordered_path roots t (c :: p :: r).

Lemma valid_from_cons2 roots t c p r :
  valid_from roots t (c :: p :: r) = time_ok t c && (anchored roots t c || (issued_by c p && valid_from roots t (p :: r))).
Proof. reflexivity. Qed.

Lemma valid_from_ordered roots t l : ordered_path roots t l -> valid_from roots t l = true.
Proof.
  induction 1 as [c T A|c p r T Ib O IH].
  - cbn [valid_from]. rewrite T, A. reflexivity.
  - rewrite valid_from_cons2, T, Ib, IH. cbn [andb]. apply orb_true_r.
Qed.

Theorem validate_complete roots t leaf rest :
  ordered_path roots t (leaf :: rest) -> validate roots t (leaf :: rest) = Some (key leaf).
Proof. intro O. unfold validate. rewrite (valid_from_ordered _ _ _ O). reflexivity. Qed.

(* certificates after the first anchored one are ignored *)
Theorem certificates_after_the_anchor_are_ignored roots t pre c extra1 extra2 :
  anchored roots t c = true ->
  valid_from roots t (pre ++ c :: extra1) = valid_from roots t (pre ++ c :: extra2).
Proof.
  intro A. induction pre as [|x pre IH]; cbn [app].
  - destruct extra1, extra2; cbn [valid_from]; rewrite A; reflexivity.
  - destruct pre as [|y pre']; cbn [app] in *; rewrite !valid_from_cons2, IH; reflexivity.
Qed.

(* a wrong signature, a wrong issuer name or a non-CA issuer anywhere before the anchor rejects *)
Theorem broken_link_rejected roots t c p rest :
  anchored roots t c = false -> issued_by c p = false -> valid_from roots t (c :: p :: rest) = false.
Proof. intros A I. rewrite valid_from_cons2, A, I. cbn [orb andb]. apply andb_false_r. Qed.

Theorem unknown_root_rejected t chain : validate [] t chain = None.
Proof.
  destruct (validate [] t chain) as [k|] eqn:E; [|reflexivity].
  apply validate_sound in E. destruct E as (leaf & rest & _ & _ & T). induction T; [contradiction|assumption].
Qed.

Lemma unknown_root_and_empty_chain roots t chain : validate [] t chain = None /\ validate roots t [] = None.
Proof. split; [apply unknown_root_rejected|reflexivity]. Qed.
