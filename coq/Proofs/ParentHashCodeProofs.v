(* The code-shaped computation of the parent hashes of an update path (Model/ParentHashCode.v, from
   parent_hash.rs) computes the decoration [decorate] for which parent-hash validity is proved
   (Proofs/ParentHash.v): same keys, same parent hashes at every node, with the parent-hash function of the
   validity theorems instantiated by ParentHash::new over the cached tree hash of the sibling. *)
From Coq Require Import NArith Arith List Lia.
From MlsV Require Import Res TreeMathGen TreeMathProofs Tree Kem Priv PrivProofs ParentHash HashCache ParentHashCode.
Import ListNotations.
Local Open Scope N_scope.

(* the hash term of a content term: the tree hash depends on a subtree exactly through its content *)
Fixpoint c2h (enc : N * N -> N) (c : cterm) : hterm :=
  match c with
  | CLeaf j None => HLeaf j None
  | CLeaf j (Some (id, k, p)) => HLeaf j (Some (id, enc (k, p)))
  | CPar nd l r => HPar (match nd with Some (k, p, um) => Some (enc (k, p), um) | None => None end) (c2h enc l) (c2h enc r)
  end.

Lemma thash_is_content enc t d strip : forall k j,
  thash (fun n => enc (d n)) t strip k j = c2h enc (content t d strip k j).
Proof.
  induction k as [|k IH]; intro j; cbn [thash content c2h].
  - cbn [N.of_nat]. rewrite node_0. unfold hash_for_leaf, leaf_of.
    destruct (get t (2 * j)) as [[id|um]|]; destruct (mem j strip); cbn [negb c2h]; try reflexivity.
    rewrite <- surjective_pairing. reflexivity.
  - unfold hash_for_parent, parent_of. rewrite !IH.
    destruct (get t (node (N.of_nat (S k)) j)) as [[id|um]|]; cbn [c2h]; try reflexivity.
    rewrite <- surjective_pairing. reflexivity.
Qed.

Lemma ph_loop_app PH t c : forall a b d h,
  ph_loop PH t c (a ++ b) d h = bind (ph_loop PH t c a d h) (fun dh => ph_loop PH t c b (fst dh) (snd dh)).
Proof.
  induction a as [|x a IH]; intros b d h; cbn [app ph_loop]; [reflexivity|].
  destruct (resolution_empty t (CopathNode_copath x)) as [e| |]; cbn [bind]; try reflexivity.
  destruct e; [apply IH|].
  destruct (get t (CopathNode_path x)) as [[id|um]|]; try reflexivity.
  destruct (hidx c (CopathNode_copath x)) as [sh| |]; cbn [bind]; try reflexivity. apply IH.
Qed.

Section Tie.
  Variable PH : N -> N -> hterm -> N.
  Variable enc : N * N -> N.
  Variables (t2 : tree) (c : hcache) (d dm0 : deco) (sndr : N) (flt : list bool) (fk : N -> N) (leafkey : N).
  Let D := length flt.
  Let PHF : N -> N -> cterm -> N := fun k p ct => PH k p (c2h enc ct).
  Let P (i : nat) : N := lvl_node (N.of_nat (S i)) sndr.
  Let C (i : nat) : N := node (N.of_nat i) (sib (sndr / 2 ^ N.of_nat i)).

  (* what the walk needs: the filter flags are the emptiness of the copath resolutions, the unfiltered path nodes
     are parents carrying the new keys, and the cache is right at the copath nodes *)
  Hypothesis Hres : forall i b, nth_error flt i = Some b -> resolution_empty t2 (C i) = Ok b.
  Hypothesis Hpar : forall i, nth_error flt i = Some false -> exists um, get t2 (P i) = Some (Par um).
  Hypothesis Hkey : forall i, nth_error flt i = Some false -> fst (dm0 (P i)) = fk (N.of_nat i).
  Hypothesis Hcache : forall i, nth_error flt i = Some false -> hidx c (C i) = Ok (thash (fun n => enc (d n)) t2 [] i (sib (sndr / 2 ^ N.of_nat i))).

  (* the state of the walk when the positions i .. D-1 have been visited: the unfiltered path nodes among them
     carry their parent hash, everything else is as it was *)
  Definition walked (i : nat) (d0 : deco) : Prop :=
    (forall m, (i <= m)%nat -> nth_error flt m = Some false ->
       d0 (P m) = (fst (dm0 (P m)), ph_below PHF t2 d sndr flt fk (D - S m) (S m))) /\
    (forall x, (forall m, (i <= m)%nat -> nth_error flt m = Some false -> x <> P m) -> d0 x = dm0 x).

  Lemma P_inj m n : P m = P n -> m = n.
  Proof. intro E. apply lvl_node_inj in E. lia. Qed.

  Lemma walked_top : walked D dm0.
  Proof.
    split; [|reflexivity]. intros m Lm Hf.
    assert (m < length flt)%nat by (apply nth_error_Some; congruence). unfold D in Lm. lia.
  Qed.

  Lemma walked_skip n d0 : walked (S n) d0 -> nth_error flt n <> Some false -> walked n d0.
  Proof.
    intros [W1 W2] Hf.
    assert (Up : forall m, (n <= m)%nat -> nth_error flt m = Some false -> (S n <= m)%nat)
      by (intros m Lm Hm; destruct (Nat.eq_dec m n) as [->|]; [contradiction|lia]).
    split; [intros m Lm Hm; exact (W1 m (Up m Lm Hm) Hm)|].
    intros x Hx. apply W2. intros m Lm. apply Hx. lia.
  Qed.

  Lemma walked_set n d0 : walked (S n) d0 -> nth_error flt n = Some false ->
    d0 (P n) = dm0 (P n) /\ walked n (set_ph d0 (P n) (ph_below PHF t2 d sndr flt fk (D - S n) (S n))).
  Proof.
    intros [W1 W2] Hf.
    assert (E : d0 (P n) = dm0 (P n)) by (apply W2; intros m Lm _ Em; apply P_inj in Em; lia).
    split; [exact E|]. unfold set_ph. split.
    - intros m Lm Hm. destruct (N.eqb_spec (P m) (P n)) as [Em|Ne]; [apply P_inj in Em; subst m; rewrite E; reflexivity|].
      apply W1; [|exact Hm]. destruct (Nat.eq_dec m n) as [->|]; [contradiction|lia].
    - intros x Hx. destruct (N.eqb_spec x (P n)) as [->|_]; [destruct (Hx n (le_n n) Hf eq_refl)|].
      apply W2. intros m Lm. apply Hx. lia.
  Qed.

  Lemma lvl_is_P n : mkCopathNode (node (0 + N.of_nat n + 1) (sndr / 2 ^ (N.of_nat n + 1))) (node (0 + N.of_nat n) (sib (sndr / 2 ^ N.of_nat n))) = mkCopathNode (P n) (C n).
  Proof. unfold P, C, lvl_node. replace (N.of_nat (S n)) with (N.of_nat n + 1) by lia. rewrite N.add_0_l. reflexivity. Qed.

  (* the walk from position m-1 down to 0, started in the state reached after the positions m .. D-1 *)
  Lemma walk_down : forall m, (m <= D)%nat -> forall d0, walked m d0 ->
    exists d', ph_loop PH t2 c (rev (path_spec m 0 sndr)) d0 (ph_below PHF t2 d sndr flt fk (D - m) m) =
               Ok (d', ph_below PHF t2 d sndr flt fk D 0) /\ walked 0 d'.
  Proof.
    induction m as [|n IH]; intros Lm d0 W0.
    - cbn [path_spec rev ph_loop]. rewrite Nat.sub_0_r. exists d0. split; [reflexivity|exact W0].
    - rewrite path_spec_snoc, rev_app_distr, lvl_is_P. cbn [rev app ph_loop CopathNode_copath CopathNode_path].
      destruct (nth_error flt n) as [b|] eqn:Hf; [|apply nth_error_None in Hf; unfold D in Lm; lia].
      rewrite (Hres n b Hf). cbn [bind].
      replace (D - n)%nat with (S (D - S n)) in IH by lia. cbn [ph_below] in IH. rewrite Hf in IH.
      destruct b; [apply (IH ltac:(lia) d0), walked_skip; [exact W0|congruence]|].
      destruct (Hpar n Hf) as [um G]. rewrite G, (Hcache n Hf). cbn [bind].
      destruct (walked_set n d0 W0 Hf) as [E Ws]. rewrite E, (Hkey n Hf), thash_is_content.
      exact (IH ltac:(lia) _ Ws).
  Qed.

  (* 30: the depth up to which direct_copath_ok (TreeMathProofs) covers the u32 arithmetic of the code *)
  Hypothesis HD : (D <= 30)%nat.
  Hypothesis Hs : sndr < 2 ^ N.of_nat D.
  Hypothesis Hn : total_leaf_count t2 = 2 ^ N.of_nat D.
  Hypothesis Hoff : forall x, x <> 2 * sndr -> (forall i, nth_error flt i = Some false -> x <> P i) -> dm0 x = d x.
  Hypothesis Hleaf : fst (dm0 (2 * sndr)) = leafkey.

  (* parent_hash_for_leaf followed by the assignment of the leaf's own parent hash computes [decorate] *)
  Theorem parent_hash_for_leaf_is_decorate :
    exists d' h, parent_hash_for_leaf PH t2 c dm0 sndr = Ok (d', h) /\
      forall x, set_ph d' (2 * sndr) h x = decorate PHF t2 d sndr flt fk leafkey x.
  Proof.
    unfold parent_hash_for_leaf. rewrite Hn.
    pose proof (direct_copath_ok (N.of_nat D) 0 sndr ltac:(lia) ltac:(lia) ltac:(rewrite N.sub_0_r; exact Hs)) as DC.
    rewrite node_0 in DC. rewrite DC. cbn [bind]. rewrite N.sub_0_r, Nat2N.id.
    destruct (walk_down D (le_n D) dm0 walked_top) as (d' & E & W1 & W2).
    rewrite Nat.sub_diag in E. cbn [ph_below] in E. fold D. rewrite E.
    exists d', (ph_below PHF t2 d sndr flt fk D 0). split; [reflexivity|].
    intro x. unfold set_ph, decorate. fold D. destruct (N.eqb_spec x (2 * sndr)) as [->|Ne].
    - rewrite W2, Hleaf by (intros m _ _ Em; exact (not_leaf_node m _ sndr (eq_sym Em))). reflexivity.
    - destruct (on_path sndr flt x) as [m|] eqn:O; [destruct (nth_error flt m) as [[|]|] eqn:Hf|].
      2: { apply on_path_some in O. destruct O as [-> _]. fold (P m). rewrite (W1 m (Nat.le_0_l m) Hf), (Hkey m Hf). reflexivity. }
      (* otherwise x is no unfiltered path node, since [on_path] would find it *)
      all: assert (NP : forall i, nth_error flt i = Some false -> x <> P i)
        by (intros i Hi Ei; rewrite Ei in O; unfold P in O;
            rewrite (on_path_lvl sndr flt i) in O by (apply nth_error_Some; congruence); congruence);
        rewrite (W2 x (fun i _ => NP i)); exact (Hoff x Ne NP).
  Qed.
End Tie.
