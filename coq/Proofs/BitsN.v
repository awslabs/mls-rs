(* Bit-level and power-of-two facts on N, and the checked u32 operations of Base/Res.v
   on arguments that do not overflow. *)
From Coq Require Import NArith Lia Bool.
From MlsV Require Import Res.
Local Open Scope N_scope.

Lemma pow2_nonzero k : 2 ^ k <> 0.
Proof. apply N.pow_nonzero. discriminate. Qed.

Lemma pow2_pos k : 0 < 2 ^ k.
Proof. apply N.neq_0_lt_0, pow2_nonzero. Qed.

Lemma pow2_le_mono a b : a <= b -> 2 ^ a <= 2 ^ b.
Proof. apply N.pow_le_mono_r. discriminate. Qed.

(* Levels are counted in N by the tree math and in nat by the recursions over a tree: the facts
   on going up one level come in both forms, [k + 1] and [N.of_nat (S k)]. *)
Lemma of_nat_S k : N.of_nat (S k) = N.of_nat k + 1.
Proof. rewrite Nnat.Nat2N.inj_succ. symmetry. apply N.add_1_r. Qed.

Lemma pow2_succ k : 2 ^ (k + 1) = 2 * 2 ^ k.
Proof. rewrite N.add_1_r. apply N.pow_succ_r'. Qed.

Lemma pow2_S (k : nat) : 2 ^ N.of_nat (S k) = 2 * 2 ^ N.of_nat k.
Proof. rewrite of_nat_S. apply pow2_succ. Qed.

Lemma half_double j : 2 * j / 2 = j.
Proof. rewrite N.mul_comm. apply N.div_mul. discriminate. Qed.

Lemma half_succ_double j : (2 * j + 1) / 2 = j.
Proof. symmetry. apply (N.div_unique _ _ j 1); lia. Qed.

Lemma div_pow2_succ l k : l / 2 ^ k / 2 = l / 2 ^ (k + 1).
Proof.
  rewrite N.div_div by (try apply pow2_nonzero; discriminate).
  rewrite pow2_succ, N.mul_comm. reflexivity.
Qed.

Lemma div_pow2_S l (k : nat) : l / 2 ^ N.of_nat k / 2 = l / 2 ^ N.of_nat (S k).
Proof. rewrite of_nat_S. apply div_pow2_succ. Qed.

Lemma half_div_pow2 l k : l / 2 / 2 ^ k = l / 2 ^ (k + 1).
Proof.
  rewrite N.div_div by (try apply pow2_nonzero; discriminate).
  rewrite pow2_succ. reflexivity.
Qed.

Lemma trailing_ones_double x : trailing_ones (2 * x) = 0.
Proof. destruct x; reflexivity. Qed.

Lemma trailing_ones_succ_double x : trailing_ones (2 * x + 1) = N.succ (trailing_ones x).
Proof. destruct x; reflexivity. Qed.

Lemma testbit_ones k i : N.testbit (N.ones k) i = (i <? k).
Proof.
  destruct (N.ltb_spec i k); [apply N.ones_spec_low | apply N.ones_spec_high]; lia.
Qed.

Lemma testbit_small x m i : x < 2 ^ m -> m <= i -> N.testbit x i = false.
Proof.
  intros Hx Hi. destruct (N.eq_dec x 0) as [->|Hn]; [apply N.bits_0|].
  apply N.bits_above_log2. apply N.log2_lt_pow2; [lia|].
  eapply N.lt_le_trans; [exact Hx|]. apply pow2_le_mono, Hi.
Qed.

Lemma testbit_shiftl a n i : N.testbit (N.shiftl a n) i = (n <=? i) && N.testbit a (i - n).
Proof.
  destruct (N.leb_spec n i).
  - rewrite N.shiftl_spec_high' by lia. reflexivity.
  - rewrite N.shiftl_spec_low by lia. reflexivity.
Qed.

(* a*2^n + b with b < 2^n has the bits of a above n and the bits of b below *)
Lemma add_shiftl_lor a n b : b < 2 ^ n -> N.shiftl a n + b = N.lor (N.shiftl a n) b.
Proof.
  intro Hb.
  assert (Z0 : N.land (N.shiftl a n) b = 0).
  { apply N.bits_inj; intro i. rewrite N.land_spec, testbit_shiftl, N.bits_0.
    destruct (N.leb_spec n i); [|reflexivity].
    rewrite (testbit_small b n i) by lia. apply andb_false_r. }
  rewrite N.add_nocarry_lxor by exact Z0. apply N.lxor_lor. exact Z0.
Qed.

Section OneBit.
  Variables x m : N.
  Hypothesis bit_clear : N.testbit x m = false.

  Lemma land_pow2 : N.land x (2 ^ m) = 0.
  Proof.
    apply N.bits_inj; intro i. rewrite N.land_spec, N.pow2_bits_eqb, N.bits_0.
    destruct (N.eqb_spec m i) as [<-|_]; [rewrite bit_clear; reflexivity|apply andb_false_r].
  Qed.

  Lemma lxor_pow2 : N.lxor x (2 ^ m) = x + 2 ^ m.
  Proof. symmetry. apply N.add_nocarry_lxor, land_pow2. Qed.

  Lemma lor_pow2 : N.lor x (2 ^ m) = x + 2 ^ m.
  Proof. rewrite <- N.lxor_lor by exact land_pow2. exact lxor_pow2. Qed.

  Lemma ldiff_pow2 : N.ldiff x (2 ^ m) = x.
  Proof. rewrite <- (N.lor_ldiff_and x (2 ^ m)) at 2. rewrite land_pow2. symmetry. apply N.lor_0_r. Qed.

  Lemma lxor_add_pow2 : N.lxor (x + 2 ^ m) (2 ^ m) = x.
  Proof. rewrite <- lxor_pow2, N.lxor_assoc, N.lxor_nilpotent. apply N.lxor_0_r. Qed.

  Lemma ldiff_add_pow2 : N.ldiff (x + 2 ^ m) (2 ^ m) = x.
  Proof.
    rewrite <- lxor_pow2. apply N.bits_inj; intro i.
    rewrite N.ldiff_spec, N.lxor_spec, N.pow2_bits_eqb.
    destruct (N.eqb_spec m i) as [<-|_]; [rewrite bit_clear; reflexivity|].
    rewrite xorb_false_r. apply andb_true_r.
  Qed.
End OneBit.

Lemma mask32_ones : mask32 = N.ones 32.
Proof. reflexivity. Qed.

Lemma u32_add_ok a b : a + b < 2 ^ 32 -> u32_add a b = Ok (a + b).
Proof. intro H. unfold u32_add. change two32 with (2 ^ 32). destruct (N.ltb_spec (a + b) (2 ^ 32)); [reflexivity|lia]. Qed.

Lemma u32_sub_ok a b : b <= a -> u32_sub a b = Ok (a - b).
Proof. intro H. unfold u32_sub. destruct (N.leb_spec b a); [reflexivity|lia]. Qed.

Lemma u32_mul_ok a b : a * b < 2 ^ 32 -> u32_mul a b = Ok (a * b).
Proof. intro H. unfold u32_mul. change two32 with (2 ^ 32). destruct (N.ltb_spec (a * b) (2 ^ 32)); [reflexivity|lia]. Qed.

Lemma u32_shr_ok a s : s < 32 -> u32_shr a s = Ok (a / 2 ^ s).
Proof. intro H. unfold u32_shr. destruct (N.ltb_spec s 32); [|lia]. rewrite N.shiftr_div_pow2. reflexivity. Qed.

Lemma u32_shl_small a s : s < 32 -> a * 2 ^ s < 2 ^ 32 -> u32_shl a s = Ok (a * 2 ^ s).
Proof.
  intros Hs Ha. unfold u32_shl. destruct (N.ltb_spec s 32); [|lia].
  rewrite N.shiftl_mul_pow2, mask32_ones, N.land_ones, N.mod_small by exact Ha. reflexivity.
Qed.

Lemma u32_shl_1 s : s < 32 -> u32_shl 1 s = Ok (2 ^ s).
Proof.
  intro H. rewrite <- (N.mul_1_l (2 ^ s)). apply u32_shl_small; [exact H|].
  rewrite N.mul_1_l. apply N.pow_lt_mono_r; [reflexivity|exact H].
Qed.

(* on a 32-bit value, `x & !a` of the code is and-not *)
Lemma land_u32_not x a : x < 2 ^ 32 -> N.land x (u32_not a) = N.ldiff x a.
Proof.
  intro Hx. apply N.bits_inj; intro i. unfold u32_not.
  rewrite N.land_spec, N.lxor_spec, N.land_spec, N.ldiff_spec, mask32_ones, testbit_ones.
  destruct (N.ltb_spec i 32).
  - rewrite andb_true_r, xorb_true_r. reflexivity.
  - rewrite (testbit_small x 32 i) by assumption. reflexivity.
Qed.
