(* The epoch layer of the group model: from the commit secret to the secrets of the new epoch.

   Proofs/CommitStep.v ends where every member of a reachable state has derived the committer's
   commit secret.  Here the key schedule AS TRANSLATED FROM THE CODE (Gen/KeySchedGen.v:
   KeySchedule::from_key_schedule for members and the committer, from_joiner for members added
   through a Welcome, get_welcome_secret, export_secret) is put on top: a state is the list of
   what every member holds for the current epoch (a `derivation`: key schedule with the next
   init secret, confirmation key, epoch secrets), a step is one accepted commit - with an update
   path (every member enters the committer's chain of path secrets at its own non-filtered
   level), without one (commit secret = zeros), or an external commit (init secret replaced by
   the HPKE export keyed by the external secret of the old epoch).  In every state reachable
   from a new group all members hold the same epoch state, whatever the hash, the derivation of
   path secrets, the contexts, PSK secrets, filter lists and levels.  *)
From Coq Require Import NArith List.
From MlsV Require Import Res Hkdf KeyScheduleCode KeySchedGen KemSecrets KemSecretsProofs TreeMathProofs KeyScheduleProofs.
Import ListNotations.
Local Open Scope N_scope.

Section EpochLayer.
  Variable H : hash_alg.
  Variable derive : list N -> list N.        (* DeriveSecret(path_secret, "path") *)
  (* HPKE export of the external init secret: a function of the external key pair - itself a
     function of the old epoch's external secret - and of the kem_output in the commit *)
  Variable ext_init : list N -> list N -> list N.

  Definition same_epoch (a b : derivation) : Prop :=
    d_ks a = d_ks b /\ d_confirm a = d_confirm b /\ d_epoch a = d_epoch b.

  Lemma same_epoch_refl a : same_epoch a a.
  Proof. repeat split. Qed.
  Lemma same_epoch_sym a b : same_epoch a b -> same_epoch b a.
  Proof. intros (A & B & C). repeat split; congruence. Qed.
  Lemma same_epoch_trans a b c : same_epoch a b -> same_epoch b c -> same_epoch a c.
  Proof. intros (A & B & C) (A' & B' & C'). repeat split; congruence. Qed.

  (* a member added by the commit runs from_joiner on the joiner secret the committer's
     from_key_schedule produced, with the same context and PSK secret: same epoch *)
  Theorem joiner_reaches_the_members_epoch init cs ctx psk :
    let d := gen_from_key_schedule H init cs ctx psk in
    same_epoch (gen_from_joiner H (d_joiner d) ctx psk) d.
  Proof. cbv zeta. unfold same_epoch, gen_from_key_schedule. cbn [d_ks d_confirm d_epoch d_joiner]. repeat split. Qed.

  (* the welcome secret is a function of the joiner secret and the PSK secret alone, which committer and joiner share *)
  Theorem joiner_derives_the_welcome_secret init cs ctx psk :
    let d := gen_from_key_schedule H init cs ctx psk in
    gen_get_welcome_secret H (d_joiner d) psk =
    kdf_derive_secret H (gen_get_pre_epoch_secret H psk (d_joiner d)) [119;101;108;99;111;109;101].
  Proof. reflexivity. Qed.

  (* members with the same old epoch, the same commit secret, context and PSK secret *)
  Lemma member_step_same a b cs ctx psk :
    same_epoch a b ->
    same_epoch (gen_from_key_schedule H (ks_init (d_ks a)) cs ctx psk) (gen_from_key_schedule H (ks_init (d_ks b)) cs ctx psk).
  Proof. intros (A & _ & _). rewrite A. apply same_epoch_refl. Qed.

  Definition epoch_agree (ms : list derivation) : Prop := forall a b, In a ms -> In b ms -> same_epoch a b.

  (* the commit secret of a commit without update path: PathSecret::empty (empty_path_secret_is_zeros) *)
  Definition zeros : list N := repeat 0 (h_len H).

  (* the init secret a member enters the key schedule with *)
  Definition init_of (ext : option (list N)) (d : derivation) : list N :=
    match ext with
    | None => ks_init (d_ks d)
    | Some kem_output => ext_init (ks_external (d_ks d)) kem_output
    end.

  (* what one member of the new epoch holds, given the members of the old one.  [path] = the
     committer's filter list and first path secret when the commit has an update path;
     [ext] = the kem_output when the commit is an external commit. *)
  Definition epoch_evolves (ms : list derivation) (path : option (list bool * list N)) (ext : option (list N))
             (ctx psk : list N) (d' : derivation) : Prop :=
    let committers_secret := match path with
                             | Some (flt, r) => snd (committer_chain (list N) derive flt r)
                             | None => zeros end in
    (* a member of the old epoch that received the commit *)
    (exists d, In d ms /\
       match path with
       | Some (flt, r) => exists k s, nth k flt true = false /\
            secret_at (list N) (fst (committer_chain (list N) derive flt r)) k = Some s /\
            d' = gen_from_key_schedule H (init_of ext d) (snd (receiver_chain (list N) derive (skipn k flt) s)) ctx psk
       | None => d' = gen_from_key_schedule H (init_of ext d) zeros ctx psk
       end)
    \/ (* the committer: a member, or - external commit - a newcomer that computed the init
          secret from the external public key of some member's GroupInfo *)
    (exists d, In d ms /\ d' = gen_from_key_schedule H (init_of ext d) committers_secret ctx psk)
    \/ (* a member added by the commit: from_joiner on the committer's joiner secret *)
    (exists d, In d ms /\
       d' = gen_from_joiner H (d_joiner (gen_from_key_schedule H (init_of ext d) committers_secret ctx psk)) ctx psk).

  Inductive estep (ms ms' : list derivation) : Prop :=
  | ECommit path ext ctx psk : Forall (epoch_evolves ms path ext ctx psk) ms' -> estep ms ms'.

  Lemma init_of_same ext a b : same_epoch a b -> init_of ext a = init_of ext b.
  Proof. intros (A & _ & _). unfold init_of. rewrite A. reflexivity. Qed.

  (* every kind of new member ends where the committer ends, had it started from the same old member *)
  Lemma evolves_canonical ms path ext ctx psk d' :
    epoch_evolves ms path ext ctx psk d' ->
    exists d, In d ms /\
      same_epoch d' (gen_from_key_schedule H (init_of ext d)
                       (match path with Some (flt, r) => snd (committer_chain (list N) derive flt r) | None => zeros end) ctx psk).
  Proof.
    intros [(d & Id & R)|[(d & Id & R)|(d & Id & R)]]; exists d; (split; [exact Id|]).
    - destruct path as [[flt r]|].
      + destruct R as (k & s & Hf & Hs & ->).
        rewrite (receiver_reaches_commit_secret (list N) derive flt r k s Hf Hs). apply same_epoch_refl.
      + subst d'. apply same_epoch_refl.
    - subst d'. apply same_epoch_refl.
    - subst d'. apply joiner_reaches_the_members_epoch.
  Qed.

  Theorem agree_step ms ms' : epoch_agree ms -> estep ms ms' -> epoch_agree ms'.
  Proof.
    intros Ag [path ext ctx psk F] a b Ia Ib. rewrite Forall_forall in F.
    destruct (evolves_canonical _ _ _ _ _ _ (F _ Ia)) as (da & Ida & Sa).
    destruct (evolves_canonical _ _ _ _ _ _ (F _ Ib)) as (db & Idb & Sb).
    (* agreement of the old members is needed only here: they enter with the same init secret *)
    rewrite (init_of_same ext db da (Ag _ _ Idb Ida)) in Sb.
    exact (same_epoch_trans _ _ _ Sa (same_epoch_sym _ _ Sb)).
  Qed.

  Inductive ereachable (ms0 : list derivation) : list derivation -> Prop :=
  | ER0 : ereachable ms0 ms0
  | ERS ms ms' : ereachable ms0 ms -> estep ms ms' -> ereachable ms0 ms'.

  Theorem agree_reachable ms0 ms : epoch_agree ms0 -> ereachable ms0 ms -> epoch_agree ms.
  Proof. intros A R. induction R as [|ms ms' R IH S]; [exact A|]. eapply agree_step; eassumption. Qed.

  Lemma agree_initial d : epoch_agree [d].
  Proof. intros a b [<-|[]] [<-|[]]. apply same_epoch_refl. Qed.

  Theorem every_reachable_epoch_is_shared d0 ms a b :
    ereachable [d0] ms -> In a ms -> In b ms -> same_epoch a b.
  Proof. intros R. exact (agree_reachable _ _ (agree_initial d0) R a b). Qed.

  (* what the property lists: epoch authenticator, exported secrets for any label / context /
     length, membership key, confirmation key, the root of the secret tree, resumption PSK *)
  Theorem shared_epoch_gives_shared_outputs a b : same_epoch a b ->
    ks_authentication (d_ks a) = ks_authentication (d_ks b) /\
    (forall label context len,
        gen_export_secret H (ks_exporter (d_ks a)) label context len = gen_export_secret H (ks_exporter (d_ks b)) label context len) /\
    ks_membership (d_ks a) = ks_membership (d_ks b) /\
    d_confirm a = d_confirm b /\
    es_encryption (d_epoch a) = es_encryption (d_epoch b) /\
    es_sender_data (d_epoch a) = es_sender_data (d_epoch b) /\
    es_resumption (d_epoch a) = es_resumption (d_epoch b) /\
    ks_init (d_ks a) = ks_init (d_ks b) /\ ks_external (d_ks a) = ks_external (d_ks b).
  Proof. intros (A & B & C). rewrite A, B, C. repeat split. Qed.

  (* the secret tree: two members with the same encryption secret and tree size get the same
     secret for every leaf (both compute the RFC's leaf secret, C13), so the message keys a
     sender derives are the keys every receiver derives for that sender and generation *)
  Theorem shared_epoch_gives_shared_leaf_secrets a b :
    N.of_nat (h_len H) < 65536 -> same_epoch a b ->
    forall d l ma oa ma' mb ob mb' sa sb, d <= 30 -> l < 2 ^ d ->
      good H d (es_encryption (d_epoch a)) ma -> good H d (es_encryption (d_epoch b)) mb ->
      take_leaf H ma (node 0 l) (2 ^ d) = Ok (oa, ma') ->
      take_leaf H mb (node 0 l) (2 ^ d) = Ok (ob, mb') ->
      oa = Some (TSecret sa) -> ob = Some (TSecret sb) -> sa = sb.
  Proof.
    intros Hl (_ & _ & C) d l ma oa ma' mb ob mb' sa sb Hd Hlt Ga Gb Ta Tb Oa Ob.
    destruct (take_leaf_ok H Hl d _ Hd _ _ _ _ Ga Hlt Ta) as [_ Sa].
    destruct (take_leaf_ok H Hl d _ Hd _ _ _ _ Gb Hlt Tb) as [_ Sb].
    rewrite (Sa _ Oa), (Sb _ Ob), C. reflexivity.
  Qed.
End EpochLayer.

(* non-vacuity: a group of one, a commit with a path that adds a member, then a path-less commit:
   the last state has two members *)
Section Example.
  Let Hx : hash_alg := {| h_fun := fun l => firstn 4 (l ++ [1;2;3;4]); h_len := 4; h_block := 8 |}.
  Let dv (s : list N) : list N := 9 :: firstn 3 s.
  Let ei (e k : list N) : list N := firstn 4 (k ++ e).
  Let d0 := gen_from_epoch_secret Hx [7;7;7;7].
  Let flt := [true; false].
  Let cs1 := snd (committer_chain (list N) dv flt [1;1;1;1]).
  Let c1 := gen_from_key_schedule Hx (ks_init (d_ks d0)) cs1 [5] [0;0;0;0].
  Let j1 := gen_from_joiner Hx (d_joiner c1) [5] [0;0;0;0].
  Let s1 := [c1; j1].
  Let r2 := gen_from_key_schedule Hx (ks_init (d_ks j1)) (zeros Hx) [6] [0;0;0;0].
  Let s2 := [gen_from_key_schedule Hx (ks_init (d_ks c1)) (zeros Hx) [6] [0;0;0;0]; r2].

  Example a_reachable_epoch_state : ereachable Hx dv ei [d0] s2 /\ length s2 = 2%nat.
  Proof.
    split; [|reflexivity].
    eapply ERS; [eapply ERS; [apply ER0|]|].
    - apply (ECommit Hx dv ei [d0] s1 (Some (flt, [1;1;1;1])) None [5] [0;0;0;0]).
      constructor; [|constructor; [|constructor]].
      + right; left. exists d0. split; [left; reflexivity|reflexivity].
      + right; right. exists d0. split; [left; reflexivity|reflexivity].
    - apply (ECommit Hx dv ei s1 s2 None None [6] [0;0;0;0]).
      constructor; [|constructor; [|constructor]].
      + right; left. exists c1. split; [left; reflexivity|reflexivity].
      + left. exists j1. split; [right; left; reflexivity|reflexivity].
  Qed.
End Example.

(* The chain of path secrets as the code produces it: PathSecretGenerator::next_secret as
   translated from tree_kem/path_secret.rs, called once per non-filtered node of the path and once
   more for the commit secret - by the committer from a fresh generator (encap), by a receiver from
   `starting_with(the secret it decrypted)` (decap, and a joiner's update_secrets).  It computes the
   chains of Model/KemSecrets.v with derive := DeriveSecret(., "path"), so the agreement theorems
   above hold of the translated generator; the commit secret of a path-less commit is the
   translated PathSecret::empty. *)
Section PathSecrets.
  Variable H : hash_alg.

  Definition path_derive (s : list N) : list N := kdf_derive_secret H s [112;97;116;104].

  Fixpoint chain_gen (flt : list bool) (g : psgen) (random : list N) : list (option (list N)) * list N :=
    match flt with
    | [] => ([], fst (gen_next_secret H g random))
    | true :: r => let '(ns, cs) := chain_gen r g random in (None :: ns, cs)
    | false :: r => let '(s, g') := gen_next_secret H g random in
                    let '(ns, cs) := chain_gen r g' random in (Some s :: ns, cs)
    end.

  Lemma gen_next_secret_state g random :
    snd (gen_next_secret H g random) = {| pg_last := Some (fst (gen_next_secret H g random)); pg_start := None |}.
  Proof. destruct g as [[last|] [start|]]; reflexivity. Qed.

  Theorem generator_chain flt : forall g random,
    chain_gen flt g random = committer_chain (list N) path_derive flt (fst (gen_next_secret H g random)).
  Proof.
    induction flt as [|f r IH]; intros g random; [reflexivity|].
    destruct f; cbn [chain_gen committer_chain].
    - rewrite IH. reflexivity.
    - rewrite (surjective_pairing (gen_next_secret H g random)), gen_next_secret_state, IH. reflexivity.
  Qed.

  (* so: whoever starts the translated generator at a non-filtered level k with the committer's
     secret of that level ends in the commit secret the committer's generator ends in *)
  Theorem generator_receiver_reaches_the_committers_commit_secret flt r k s random' :
    nth k flt true = false ->
    secret_at (list N) (fst (chain_gen flt psgen_new r)) k = Some s ->
    snd (chain_gen (skipn k flt) (psgen_starting_with s) random') = snd (chain_gen flt psgen_new r).
  Proof.
    intros Hf Hs. rewrite generator_chain in Hs. rewrite !generator_chain.
    exact (f_equal snd (receiver_reaches_commit_secret (list N) path_derive flt r k s Hf Hs)).
  Qed.

  (* the committer starts a fresh generator, whose first secret is random; a receiver or joiner starts with
     the secret it was sent and never draws a random one *)
  Theorem translated_generator_chains flt s random :
    chain_gen flt psgen_new random = committer_chain (list N) path_derive flt random /\
    chain_gen flt (psgen_starting_with s) random = receiver_chain (list N) path_derive flt s.
  Proof. split; apply generator_chain. Qed.

  Theorem empty_path_secret_is_zeros : gen_path_secret_empty H = zeros H.
  Proof. reflexivity. Qed.
End PathSecrets.
