(* The loops that write a member's private keys, as translated from tree_kem/private.rs and
   group/mod.rs (Gen/PrivGen.v), compute the private states of Model/Priv.v that the theorems of
   C09 are about: update_secrets = join_priv, the blanking loop + update_leaf = provisional_priv, the write
   loops of decap and encap = decap_priv and encap_priv. *)
From Coq Require Import NArith Arith List Bool Lia.
From MlsV Require Import Res Tree TreeProofs Priv PrivProofs PrivGen.
Import ListNotations.
Local Open Scope N_scope.

Lemma set_nth_length {A} (l : list A) i v : length (set_nth l i v) = length l.
Proof. revert i; induction l as [|x l IH]; intros [|i]; cbn [set_nth length]; auto. Qed.

Lemma nth_error_set_nth {A} (l : list A) i v k :
  nth_error (set_nth l i v) k = match nth_error l k with Some old => Some (if (k =? i)%nat then v else old) | None => None end.
Proof.
  revert i k; induction l as [|x l IH]; intros [|i] [|k]; cbn [set_nth nth_error Nat.eqb]; try reflexivity; [destruct (nth_error l k); reflexivity|apply IH].
Qed.

Lemma list_ext {A} (a b : list A) : (forall k, nth_error a k = nth_error b k) -> a = b.
Proof.
  revert b; induction a as [|x a IH]; intros [|y b] H; try discriminate (H O); [reflexivity|].
  pose proof (H O) as H0. cbn in H0. injection H0 as ->. f_equal. apply IH. intro k. exact (H (S k)).
Qed.

Lemma fold_left_ext {A B} (f g : A -> B -> A) l : (forall a x, f a x = g a x) -> forall a, fold_left f l a = fold_left g l a.
Proof. intro E. induction l as [|x l IH]; intro a; cbn [fold_left]; [reflexivity|]. rewrite E. apply IH. Qed.

(* a loop over an enumerated vector that at step i writes position i + 1, or leaves it *)
Lemma write_loop_nth {A} (w : nat -> A -> option (option N)) (l : list A) : forall i0 (sk : priv) k,
  nth_error (fold_left (fun (sk : priv) (x : nat * A) => match w (fst x) (snd x) with Some v => set_nth sk (fst x + 1) v | None => sk end)
                       (enumerate_from i0 l) sk) k =
  match nth_error sk k with
  | None => None
  | Some old => Some (if (i0 <? k)%nat
                      then match nth_error l (k - 1 - i0) with
                           | Some a => match w (k - 1)%nat a with Some v => v | None => old end
                           | None => old
                           end
                      else old)
  end.
Proof.
  induction l as [|a l IH]; intros i0 sk k; cbn [enumerate_from fold_left fst snd].
  - destruct (nth_error sk k); [|reflexivity]. destruct (i0 <? k)%nat; [|reflexivity]. destruct (k - 1 - i0)%nat; reflexivity.
  - rewrite IH. set (sk' := match w i0 a with Some v => _ | None => _ end).
    assert (Step : nth_error sk' k =
                   match nth_error sk k with
                   | None => None
                   | Some old => Some (if (k =? i0 + 1)%nat then match w i0 a with Some v => v | None => old end else old)
                   end).
    { unfold sk'. destruct (w i0 a) as [v|]; [apply nth_error_set_nth|destruct (nth_error sk k), (k =? i0 + 1)%nat; reflexivity]. }
    rewrite Step. destruct (nth_error sk k) as [old|]; [|reflexivity]. cbn beta iota. f_equal.
    destruct (Nat.eqb_spec k (i0 + 1)) as [->|Ne].
    + replace (S i0 <? i0 + 1)%nat with false by (symmetry; apply Nat.ltb_ge; lia).
      replace (i0 <? i0 + 1)%nat with true by (symmetry; apply Nat.ltb_lt; lia).
      replace (i0 + 1 - 1 - i0)%nat with O by lia. replace (i0 + 1 - 1)%nat with i0 by lia. reflexivity.
    + destruct (Nat.ltb_spec (S i0) k) as [Lt|Ge].
      * replace (i0 <? k)%nat with true by (symmetry; apply Nat.ltb_lt; lia).
        replace (k - 1 - i0)%nat with (S (k - 1 - S i0)) by lia. reflexivity.
      * destruct (Nat.ltb_spec i0 k) as [Lt|Ge']; [lia|reflexivity].
Qed.

Lemma write_loop_length {A} (w : nat -> A -> option (option N)) (l : list A) : forall i0 (sk : priv),
  length (fold_left (fun (sk : priv) (x : nat * A) => match w (fst x) (snd x) with Some v => set_nth sk (fst x + 1) v | None => sk end)
                    (enumerate_from i0 l) sk) = length sk.
Proof.
  induction l as [|a l IH]; intros i0 sk; cbn [enumerate_from fold_left fst snd]; [reflexivity|].
  rewrite IH. destruct (w i0 a); [apply set_nth_length|reflexivity].
Qed.

Definition is_blank (t : tree) (n : N) : bool := match get t n with None => true | Some _ => false end.

Theorem gen_provisional_is_model tprov me pr own path :
  path_nodes tprov me = Ok path ->
  provisional_priv tprov me pr own =
  Ok (let p1 := gen_provisional_blank (is_blank tprov) pr path in
      match own with Some key => gen_update_leaf p1 key | None => p1 end).
Proof.
  intro P. unfold provisional_priv. rewrite P. cbn [bind ret]. apply (f_equal (@Ok priv)).
  unfold gen_provisional_blank, gen_update_leaf, mapi, enumerate.
  set (w := fun (_ : nat) n => if is_blank tprov n then Some (@None N) else None).
  rewrite (fold_left_ext _ (fun (sk : priv) (x : nat * N) => match w (fst x) (snd x) with Some v => set_nth sk (fst x + 1) v | None => sk end))
    by (intros a [i n]; unfold w; cbn [fst snd]; destruct (is_blank tprov n); reflexivity).
  apply list_ext. intro k. rewrite nth_error_mapi_from. cbn [Nat.add]. destruct own as [key|].
  - rewrite nth_error_set_nth, (write_loop_length w), resize_length, nth_error_resize.
    destruct (Nat.ltb_spec k (length path + 1)) as [Lk|Lk].
    + rewrite (nth_error_repeat _ Lk). destruct k; reflexivity.
    + rewrite (proj2 (nth_error_None _ _)) by (rewrite repeat_length; exact Lk). reflexivity.
  - rewrite (write_loop_nth w). destruct (nth_error (resize pr (length path + 1)) k) as [old|]; cbn [option_map]; [|reflexivity].
    destruct k as [|k]; [reflexivity|]. cbn [Nat.ltb Nat.leb]. replace (S k - 1 - 0)%nat with k by lia.
    destruct (nth_error path k) as [p|]; [|reflexivity]. unfold w, is_blank. destruct (get tprov p); reflexivity.
Qed.

Definition step_us (ks : keys) (acc : option priv) (x : nat * (N * bool)) : option priv :=
  match acc with
  | None => None
  | Some sk => let '(i, (n, f)) := x in
               if f then Some sk else match ks n with None => None | Some key => Some (set_nth sk (i + 1) (Some key)) end
  end.

Lemma step_us_none ks l : fold_left (step_us ks) l None = None.
Proof. induction l as [|x l IH]; [reflexivity|exact IH]. Qed.

(* the nodes of the joiner's direct path, level by level *)
Fixpoint path_from (me : N) (i : nat) (n : nat) : list N :=
  match n with O => [] | S n' => lvl_node (N.of_nat (S i)) me :: path_from me (S i) n' end.

Lemma enumerate_from_skipn {A} (l : list A) : forall i0 k, skipn k (enumerate_from i0 l) = enumerate_from (i0 + k) (skipn k l).
Proof.
  induction l as [|x l IH]; intros i0 k; [destruct k; reflexivity|].
  destruct k as [|k]; cbn [skipn enumerate_from]; [rewrite Nat.add_0_r; reflexivity|]. rewrite IH. f_equal. lia.
Qed.

Lemma join_levels_loop ks me : forall jflt i lca (pre : priv),
  length pre = S i -> (lca <= i)%nat ->
  fold_left (step_us ks) (enumerate_from i (combine (path_from me i (length jflt)) jflt)) (Some (pre ++ repeat None (length jflt))) =
  match join_levels ks me jflt i lca with Some l => Some (pre ++ l) | None => None end.
Proof.
  unfold priv. induction jflt as [|f r IH]; intros i lca pre Lp Le; cbn [length path_from combine enumerate_from fold_left join_levels repeat].
  - reflexivity.
  - replace (lca <=? i)%nat with true by (symmetry; apply Nat.leb_le; exact Le). cbn [andb step_us].
    destruct f; cbn [negb].
    + replace (pre ++ None :: repeat None (length r)) with ((pre ++ [None]) ++ repeat None (length r)) by (rewrite <- app_assoc; reflexivity).
      etransitivity; [apply (IH (S i) lca (pre ++ [None])); [rewrite app_length; cbn [length]; lia|lia]|].
      destruct (join_levels ks me r (S i) lca) as [l|]; [rewrite <- app_assoc; reflexivity|reflexivity].
    + destruct (ks (lvl_node (N.of_nat (S i)) me)) as [key|] eqn:K.
      * assert (E : set_nth (pre ++ None :: repeat None (length r)) (i + 1) (Some key) = (pre ++ [Some key]) ++ repeat None (length r)).
        { replace (i + 1)%nat with (length pre + 0)%nat by lia. rewrite <- app_assoc. cbn [app]. clear.
          induction pre as [|x pre IHp]; cbn [app length Nat.add set_nth]; [reflexivity|]. f_equal. exact IHp. }
        rewrite E. etransitivity; [apply (IH (S i) lca (pre ++ [Some key])); [rewrite app_length; cbn [length]; lia|lia]|].
        destruct (join_levels ks me r (S i) lca) as [l|]; [rewrite <- app_assoc; reflexivity|reflexivity].
      * rewrite step_us_none. destruct (join_levels ks me r (S i) lca); reflexivity.
Qed.

(* below the common ancestor nothing is written: join_levels yields None entries there *)
Lemma join_levels_below ks me : forall jflt i lca,
  (i + length jflt <= lca)%nat -> join_levels ks me jflt i lca = Some (repeat None (length jflt)).
Proof.
  induction jflt as [|f r IH]; intros i lca L; cbn [join_levels length repeat]; [reflexivity|].
  cbn [length] in L. rewrite IH by lia. replace (lca <=? i)%nat with false by (symmetry; apply Nat.leb_gt; lia). reflexivity.
Qed.

Lemma join_levels_split ks me : forall jflt i lca,
  (i <= lca)%nat ->
  join_levels ks me jflt i lca =
  match join_levels ks me (skipn (lca - i) jflt) lca lca with
  | Some l => Some (repeat None (Nat.min (lca - i) (length jflt)) ++ l)
  | None => None
  end.
Proof.
  induction jflt as [|f r IH]; intros i lca L.
  - destruct (lca - i)%nat; reflexivity.
  - destruct (Nat.eq_dec i lca) as [->|Ne].
    + rewrite Nat.sub_diag. cbn [skipn Nat.min repeat app]. destruct (join_levels ks me (f :: r) lca lca); reflexivity.
    + replace (lca - i)%nat with (S (lca - S i)) by lia. cbn [skipn join_levels length Nat.min].
      rewrite (IH (S i) lca) by lia.
      replace (lca <=? i)%nat with false by (symmetry; apply Nat.leb_gt; lia). cbn [andb].
      destruct (join_levels ks me (skipn (lca - S i) r) lca lca); reflexivity.
Qed.

Lemma path_from_length me : forall n i, length (path_from me i n) = n.
Proof. induction n as [|n IH]; intro i; cbn [path_from length]; auto. Qed.
Lemma path_from_skipn me : forall n i k, skipn k (path_from me i n) = path_from me (i + k) (n - k).
Proof.
  induction n as [|n IH]; intros i k; [destruct k; reflexivity|].
  destruct k as [|k]; cbn [skipn path_from Nat.sub]; [rewrite Nat.add_0_r; reflexivity|].
  rewrite IH. f_equal. lia.
Qed.
Lemma combine_skipn {A B} (a : list A) : forall (b : list B) k, skipn k (combine a b) = combine (skipn k a) (skipn k b).
Proof.
  induction a as [|x a IH]; intros b k; [destruct k; reflexivity|].
  destruct b as [|y b]; [destruct k; cbn [skipn combine]; [reflexivity|destruct (skipn k a); reflexivity]|].
  destruct k as [|k]; cbn [skipn combine]; [reflexivity|apply IH].
Qed.

Theorem gen_update_secrets_is_join_priv ks me leafkey jflt lca :
  gen_update_secrets ks [Some leafkey] (path_from me 0 (length jflt)) jflt lca = join_priv ks me leafkey jflt lca.
Proof.
  unfold gen_update_secrets, join_priv, enumerate. fold (step_us ks).
  rewrite path_from_length.
  assert (R : resize [Some leafkey] (length jflt + 1) = [Some leafkey] ++ repeat None (length jflt)).
  { unfold resize. replace (length jflt + 1)%nat with (S (length jflt)) by lia. cbn [firstn length]. rewrite firstn_nil.
    replace (S (length jflt) - 1)%nat with (length jflt) by lia. reflexivity. }
  rewrite R. rewrite enumerate_from_skipn, combine_skipn, path_from_skipn. cbn [Nat.add].
  rewrite (join_levels_split ks me jflt 0 lca) by lia. rewrite Nat.sub_0_r.
  destruct (Nat.le_gt_cases (length jflt) lca) as [Big|Small].
  - (* the loop is skipped entirely *)
    rewrite (skipn_all2 jflt) by lia. replace (length jflt - lca)%nat with O by lia. cbn [path_from combine enumerate_from fold_left join_levels].
    rewrite Nat.min_r by lia. rewrite app_nil_r. reflexivity.
  - rewrite Nat.min_l by lia.
    assert (Ls : length (skipn lca jflt) = (length jflt - lca)%nat) by apply skipn_length.
    rewrite <- Ls.
    assert (Sp : [Some leafkey] ++ repeat None (length jflt) = ([Some leafkey] ++ repeat None lca) ++ repeat None (length (skipn lca jflt))).
    { rewrite <- app_assoc. f_equal. rewrite <- repeat_app. f_equal. lia. }
    rewrite Sp. etransitivity; [apply (join_levels_loop ks me (skipn lca jflt) lca lca ([Some leafkey] ++ repeat None lca)); [rewrite app_length, repeat_length; cbn [length]; lia|lia]|].
    destruct (join_levels ks me (skipn lca jflt) lca lca) as [l|]; [rewrite <- app_assoc; reflexivity|reflexivity].
Qed.

(* the path the loop walks is the direct path of the tree math: node k of path_from is lvl_node (k+1) *)
Lemma path_from_nth me : forall n i k, (k < n)%nat -> nth_error (path_from me i n) k = Some (lvl_node (N.of_nat (S (i + k))) me).
Proof.
  induction n as [|n IH]; intros i k L; [lia|]. destruct k as [|k]; cbn [path_from nth_error]; [rewrite Nat.add_0_r; reflexivity|].
  rewrite IH by lia. do 3 f_equal. lia.
Qed.

(* on the member's direct path as the translated tree math computes it *)
Theorem gen_update_secrets_on_the_direct_path t me ks leafkey jflt lca path :
  small t -> 2 * me <= tlen t -> path_nodes t me = Ok path -> length jflt = length path ->
  gen_update_secrets ks [Some leafkey] path jflt lca = join_priv ks me leafkey jflt lca.
Proof.
  intros Sm L P Len. destruct (total_leaf_count_spec t Sm) as (d & Et & _).
  destruct (path_nodes_nth t me d path Sm L Et P) as [Lp At].
  replace path with (path_from me 0 (length jflt)); [apply gen_update_secrets_is_join_priv|].
  apply list_ext. intro k.
  destruct (Nat.lt_ge_cases k (N.to_nat d)) as [Lk|Gk].
  - rewrite At, path_from_nth by lia. reflexivity.
  - rewrite (proj2 (nth_error_None path k)), (proj2 (nth_error_None _ k)); [reflexivity|rewrite path_from_length|]; lia.
Qed.

Lemma nth_error_skipn {A} (l : list A) : forall k j, nth_error (skipn k l) j = nth_error l (k + j).
Proof. induction l as [|x l IH]; intros [|k] j; cbn [skipn Nat.add]; try reflexivity; [destruct j; reflexivity|apply IH]. Qed.

Theorem gen_decap_writes_is_model pr pathlen nodes lca :
  gen_decap_writes pr pathlen nodes lca = decap_priv pr pathlen lca nodes.
Proof.
  unfold gen_decap_writes, decap_priv, enumerate, mapi.
  rewrite enumerate_from_skipn. cbn [Nat.add].
  set (w := fun (_ : nat) (u : option N) => Some u).
  rewrite (fold_left_ext _ (fun (sk : priv) (x : nat * option N) => match w (fst x) (snd x) with Some v => set_nth sk (fst x + 1) v | None => sk end))
    by (intros a [i [key|]]; reflexivity).
  replace (pathlen + 1 + 1)%nat with (pathlen + 2)%nat by lia.
  apply list_ext. intro k. rewrite (write_loop_nth w), nth_error_mapi_from. cbn [Nat.add]. unfold w.
  destruct (nth_error (resize pr (pathlen + 2)) k) as [old|]; cbn [option_map]; [|reflexivity].
  destruct k as [|k]; [reflexivity|]. f_equal.
  destruct (Nat.ltb_spec lca (S k)) as [Lt|Ge].
  - replace (lca <=? k)%nat with true by (symmetry; apply Nat.leb_le; lia). cbn [andb].
    rewrite nth_error_skipn. replace (lca + (S k - 1 - lca))%nat with k by lia.
    destruct (Nat.ltb_spec k (length nodes)) as [Lk|Gk].
    + destruct (nth_error nodes k) as [u|] eqn:E; [|apply nth_error_None in E; lia].
      rewrite (nth_error_nth _ _ None E). reflexivity.
    + assert (E : nth_error nodes k = None) by (apply nth_error_None; lia). rewrite E. reflexivity.
  - replace (lca <=? k)%nat with false by (symmetry; apply Nat.leb_gt; lia). reflexivity.
Qed.

Lemma nth_error_combine {A B} (a : list A) : forall (b : list B) k,
  nth_error (combine a b) k = match nth_error a k, nth_error b k with Some x, Some y => Some (x, y) | _, _ => None end.
Proof.
  induction a as [|x a IH]; intros [|y b] [|k]; cbn [combine nth_error]; try reflexivity; [destruct (nth_error a k); reflexivity|apply IH].
Qed.

Theorem gen_encap_writes_is_model pr path flt fk leafkey :
  length flt = length path ->
  gen_encap_writes pr path flt fk leafkey = encap_priv pr (length path) flt fk leafkey.
Proof.
  intro L. unfold gen_encap_writes, enumerate.
  set (w := fun (i : nat) (nf : N * bool) => Some (if snd nf then @None N else Some (fk (N.of_nat (i + 1))))).
  rewrite (fold_left_ext _ (fun (sk : priv) (x : nat * (N * bool)) => match w (fst x) (snd x) with Some v => set_nth sk (fst x + 1) v | None => sk end))
    by (intros a [i [node [|]]]; reflexivity).
  apply list_ext. intro k. rewrite nth_error_encap_priv, nth_error_set_nth, (write_loop_nth w), nth_error_resize.
  destruct (Nat.ltb_spec k (length path + 1)) as [Lk|Lk]; [|reflexivity].
  destruct k as [|k]; [reflexivity|]. cbn [Nat.eqb Nat.ltb Nat.leb]. f_equal.
  replace (S k - 1 - 0)%nat with k by lia. replace (S k - 1)%nat with k by lia. rewrite nth_error_combine.
  destruct (nth_error flt k) as [f|] eqn:F; [|destruct (nth_error path k); reflexivity].
  destruct (nth_error path k) as [nd|] eqn:P; [|apply nth_error_None in P; lia].
  unfold w. cbn [snd]. destruct f; [reflexivity|]. do 2 f_equal. lia.
Qed.
