(* Shape of the Gallina HMAC / HKDF that serves as the common reference of the three crypto providers
   (C13 compares it with RFC vectors and the library; C14 with every provider), for any hash whose
   digest has the advertised length; the SHA-2 reference is such a hash. *)
From Coq Require Import NArith List Arith Lia.
From MlsV Require Import Sha2 Hkdf.
Import ListNotations.

Lemma blocks_cover n len : n <> 0 -> len <= (len + n - 1) / n * n.
Proof.
  intro Hn. pose proof (Nat.div_mod (len + n - 1) n Hn). pose proof (Nat.mod_upper_bound (len + n - 1) n Hn). nia.
Qed.

Section HkdfShape.
  Variable H : hash_alg.
  Hypothesis out_len : forall m, length (h_fun H m) = h_len H.

  Lemma hmac_length key msg : length (hmac H key msg) = h_len H.
  Proof. unfold hmac. apply out_len. Qed.

  Lemma expand_blocks_length n : forall prk info i prev, length (expand_blocks H n prk info i prev) = (n * h_len H)%nat.
  Proof. induction n as [|n IH]; intros; cbn [expand_blocks]; [reflexivity|]. rewrite app_length, hmac_length, IH. lia. Qed.

  Lemma expand_blocks_prefix n k : forall prk info i prev,
    exists more, expand_blocks H (n + k) prk info i prev = expand_blocks H n prk info i prev ++ more.
  Proof.
    induction n as [|n IH]; intros prk info i prev; cbn [expand_blocks plus].
    - eexists. reflexivity.
    - destruct (IH prk info (i + 1)%N (hmac H prk (prev ++ info ++ [i]))) as [more E]. exists more. rewrite E, app_assoc. reflexivity.
  Qed.

  Theorem hkdf_expand_length prk info len : h_len H <> 0%nat -> length (hkdf_expand H prk info len) = len.
  Proof.
    intro Hn. unfold hkdf_expand. rewrite firstn_length, expand_blocks_length. apply Nat.min_l, blocks_cover, Hn.
  Qed.

  Theorem hkdf_expand_prefix prk info l1 l2 : h_len H <> 0%nat -> (l1 <= l2)%nat ->
    firstn l1 (hkdf_expand H prk info l2) = hkdf_expand H prk info l1.
  Proof.
    intros Hn L. unfold hkdf_expand. rewrite firstn_firstn, Nat.min_l by exact L.
    set (n1 := ((l1 + h_len H - 1) / h_len H)%nat). set (n2 := ((l2 + h_len H - 1) / h_len H)%nat).
    assert (Hle : (n1 <= n2)%nat) by (apply Nat.div_le_mono; lia).
    replace n2 with (n1 + (n2 - n1))%nat by lia.
    destruct (expand_blocks_prefix n1 (n2 - n1) prk info 1%N []) as [more E]. rewrite E.
    rewrite firstn_app. replace (l1 - length (expand_blocks H n1 prk info 1%N []))%nat with 0%nat.
    - cbn [firstn]. rewrite app_nil_r. reflexivity.
    - rewrite expand_blocks_length. symmetry. apply Nat.sub_0_le, blocks_cover, Hn.
  Qed.
End HkdfShape.

Section ShaShape.
  Variable P : sha_params.

  Lemma round_length st k wt : length (round P st k wt) = length st.
  Proof. unfold round. do 9 (destruct st as [|? st]; [reflexivity|]). reflexivity. Qed.

  Lemma rounds_length ks : forall i bw win st, length (rounds P ks i bw win st) = length st.
  Proof. induction ks as [|k ks IH]; intros; cbn [rounds]; [reflexivity|]. rewrite IH. apply round_length. Qed.

  Lemma compress_length h blk : length (compress P h blk) = length h.
  Proof. unfold compress. rewrite map_length, combine_length, rounds_length. apply Nat.min_id. Qed.

  Lemma fold_compress_length blocks : forall h, length (fold_left (compress P) blocks h) = length h.
  Proof. induction blocks as [|b r IH]; intro h; cbn [fold_left]; [reflexivity|]. rewrite IH. apply compress_length. Qed.

  Lemma word_bytes_length n x : length (word_bytes n x) = n.
  Proof. induction n as [|n IH]; cbn [word_bytes length]; congruence. Qed.

  Lemma flat_word_bytes_length n l : length (flat_map (word_bytes n) l) = (length l * n)%nat.
  Proof. induction l as [|x l IH]; cbn [flat_map length]; [reflexivity|]. rewrite app_length, word_bytes_length, IH. lia. Qed.

  Lemma word_bytes_are_bytes n x : Forall (fun b => (b < 256)%N) (word_bytes n x).
  Proof.
    induction n as [|n IH]; cbn [word_bytes]; constructor; [|exact IH].
    change 255%N with (N.ones 8). rewrite N.land_ones. apply N.mod_lt. discriminate.
  Qed.

  Lemma sha_length msg :
    (sp_out P <= length (sp_h0 P) * N.to_nat (sp_w P / 8))%nat -> length (sha P msg) = sp_out P.
  Proof.
    intro Hle. unfold sha. rewrite firstn_length, flat_word_bytes_length, fold_compress_length. apply Nat.min_l. exact Hle.
  Qed.

  Lemma sha_bytes msg : Forall (fun b => (b < 256)%N) (sha P msg).
  Proof.
    unfold sha. set (h := fold_left _ _ _). clearbody h. set (w := flat_map _ h).
    assert (A : Forall (fun b => (b < 256)%N) w).
    { apply Forall_flat_map, Forall_forall. intros x _. apply word_bytes_are_bytes. }
    rewrite <- (firstn_skipn (sp_out P) w) in A. apply Forall_app in A. apply A.
  Qed.
End ShaShape.

Lemma sha_shape P msg : Forall (fun b => (b < 256)%N) (sha P msg) /\
  ((sp_out P <= length (sp_h0 P) * N.to_nat (sp_w P / 8))%nat -> length (sha P msg) = sp_out P).
Proof. split; [apply sha_bytes|apply sha_length]. Qed.

Definition HA256 := {| h_fun := sha256; h_block := 64; h_len := 32 |}.
Definition HA384 := {| h_fun := sha384; h_block := 128; h_len := 48 |}.
Definition HA512 := {| h_fun := sha512; h_block := 128; h_len := 64 |}.
Definition mls_hash (H : hash_alg) : Prop := H = HA256 \/ H = HA384 \/ H = HA512.

Lemma mls_hash_out H : mls_hash H -> forall m, length (h_fun H m) = h_len H.
Proof. intros [E|[E|E]] m; subst H; apply sha_length; vm_compute; lia. Qed.
Lemma mls_hash_nz H : mls_hash H -> h_len H <> 0%nat.
Proof. intros [E|[E|E]]; subst H; discriminate. Qed.

(* The reference KDF of every MLS cipher suite: right output sizes, and the prefix property that
   makes "expand to n bytes" independent of how a provider rounds up to blocks. *)
Theorem reference_kdf_shape H : mls_hash H ->
  (forall salt ikm, length (hkdf_extract H salt ikm) = h_len H) /\
  (forall key msg, length (hmac H key msg) = h_len H) /\
  (forall prk info len, length (hkdf_expand H prk info len) = len) /\
  (forall prk info l1 l2, (l1 <= l2)%nat -> firstn l1 (hkdf_expand H prk info l2) = hkdf_expand H prk info l1).
Proof.
  intro M. pose proof (mls_hash_out H M) as O. pose proof (mls_hash_nz H M) as Z. repeat split.
  - intros. unfold hkdf_extract. apply hmac_length. exact O.
  - intros. apply hmac_length. exact O.
  - intros. apply hkdf_expand_length; assumption.
  - intros. apply hkdf_expand_prefix; assumption.
Qed.
