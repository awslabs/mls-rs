(* Obligations about the GENERATED type table (Gen/CodecTypes.v): every wire/state type of
   the library is a well-formed descriptor, so that the generic theorems of CodecProofs.v
   apply to it.  Re-checked on every run against the regenerated table. *)
From Coq Require Import NArith List Bool String.
From MlsV Require Import Codec CodecProofs CodecTypes CodecCases.
Import ListNotations.
Local Open Scope N_scope.

Lemma Forall_decided {A} (b : A -> bool) (P : A -> Prop) l :
  (forall x, b x = true -> P x) -> Forall P (filter (fun x => negb (b x)) l) -> Forall P l.
Proof.
  intros Hb Hrest. apply Forall_forall. intros x Hx. destruct (b x) eqn:E; [apply Hb, E|].
  apply (proj1 (Forall_forall _ _) Hrest), filter_In. rewrite E. split; [exact Hx|reflexivity].
Qed.

(* [wfb] and [canonicalb] refuse a [TDep]: PublicMessage, AuthenticatedContent and its TBS / TBM
   forms are done by case analysis on the sender and content type tags; the types that embed
   them follow from their parts. *)
Definition wf_canonical (t : ty) : Prop := wf t /\ canonicalP t.

Lemma checked_wf_canonical t : wfb false t && canonicalb t = true -> wf_canonical t.
Proof.
  intro H. apply andb_true_iff in H. split; [apply wfb_wfP|apply canonicalb_canonicalP]; apply H.
Qed.

Lemma wf_canonical_pair a b : wf_canonical a -> wf_canonical b -> wf_canonical (TPair a b).
Proof. intros [Wa Ca] [Wb Cb]. repeat split; assumption. Qed.

Lemma wf_canonical_dep a f : wf_canonical a -> (forall x, wf_canonical (f x)) -> wf_canonical (TDep a f).
Proof. intros [Wa Ca] H. repeat split; try assumption; intro x; apply H. Qed.

Lemma wf_canonical_case w d p r : wf_canonical p -> wf_canonical (TEnum w r) -> wf_canonical (TEnum w (TCase d p r)).
Proof. intros [Wp Cp] [[_ Wr] Cr]. repeat split; assumption. Qed.

Lemma auth_data_wf_canonical c : wf_canonical (T_FramedContentAuthData c).
Proof. unfold T_FramedContentAuthData. destruct (c =? 3); apply checked_wf_canonical; reflexivity. Qed.

Lemma context_tail_wf_canonical (b : bool) : wf_canonical (if b then TPair T_GroupContext TUnit else TUnit).
Proof. destruct b; apply checked_wf_canonical; reflexivity. Qed.

Lemma public_message_wf_canonical : wf_canonical T_PublicMessage.
Proof.
  apply wf_canonical_dep; [apply checked_wf_canonical; reflexivity|]. intro fc.
  apply wf_canonical_pair; [apply auth_data_wf_canonical|].
  destruct (fc_sender_tag fc =? 1); apply checked_wf_canonical; reflexivity.
Qed.

Lemma authenticated_content_wf_canonical : wf_canonical T_AuthenticatedContent.
Proof.
  apply wf_canonical_pair, wf_canonical_dep; try (apply checked_wf_canonical; reflexivity).
  intro fc. apply auth_data_wf_canonical.
Qed.

Lemma tbs_wf_canonical : wf_canonical T_AuthenticatedContentTBS.
Proof.
  apply wf_canonical_pair, wf_canonical_pair, wf_canonical_dep; try (apply checked_wf_canonical; reflexivity).
  intro fc. apply context_tail_wf_canonical.
Qed.

Lemma tbm_wf_canonical : wf_canonical T_AuthenticatedContentTBM.
Proof.
  apply wf_canonical_pair, wf_canonical_pair, wf_canonical_dep; try (apply checked_wf_canonical; reflexivity).
  intro fc. apply wf_canonical_pair; [apply context_tail_wf_canonical|apply auth_data_wf_canonical].
Qed.

Lemma legacy_pending_commit_wf_canonical : wf_canonical T_LegacyPendingCommit.
Proof. apply wf_canonical_pair; [exact authenticated_content_wf_canonical|apply checked_wf_canonical; reflexivity]. Qed.

Lemma pending_commit_snapshot_wf_canonical : wf_canonical T_PendingCommitSnapshot.
Proof.
  apply wf_canonical_case; [apply checked_wf_canonical; reflexivity|].
  apply wf_canonical_case; [exact legacy_pending_commit_wf_canonical|apply checked_wf_canonical; reflexivity].
Qed.

Lemma mls_message_payload_wf_canonical : wf_canonical T_MlsMessagePayload.
Proof. apply wf_canonical_case; [exact public_message_wf_canonical|apply checked_wf_canonical; reflexivity]. Qed.

Lemma mls_message_wf_canonical : wf_canonical T_MlsMessage.
Proof.
  apply wf_canonical_pair; [apply checked_wf_canonical; reflexivity|].
  apply wf_canonical_pair; [exact mls_message_payload_wf_canonical|apply checked_wf_canonical; reflexivity].
Qed.

(* the two wire messages, as Props/C12 names them *)
Lemma public_message_canonical : canonicalP T_PublicMessage.
Proof. apply (proj2 public_message_wf_canonical). Qed.

Lemma mls_message_canonical : canonicalP T_MlsMessage.
Proof. apply (proj2 mls_message_wf_canonical). Qed.

Lemma tstruct_wf fs : Forall wf fs -> wf (tstruct fs).
Proof. induction 1; cbn [tstruct]; [reflexivity|repeat split; assumption]. Qed.

(* the stored snapshot holds the pending commit, and with it an AuthenticatedContent *)
Lemma snapshot_wf : wf T_Snapshot.
Proof.
  apply tstruct_wf, (Forall_decided (wfb false)); [intro t; apply wfb_wfP|].
  change (Forall wf [T_PendingCommitSnapshot]).
  apply Forall_cons; [apply (proj1 pending_commit_snapshot_wf_canonical)|apply Forall_nil].
Qed.

Definition dependent_types : list ty :=
  [T_PublicMessage; T_AuthenticatedContent; T_AuthenticatedContentTBS; T_AuthenticatedContentTBM;
   T_LegacyPendingCommit; T_MlsMessagePayload; T_MlsMessage; T_PendingCommitSnapshot].

Lemma dependent_types_wf_canonical : Forall wf_canonical dependent_types.
Proof.
  repeat apply Forall_cons;
    [ exact public_message_wf_canonical | exact authenticated_content_wf_canonical | exact tbs_wf_canonical
    | exact tbm_wf_canonical | exact legacy_pending_commit_wf_canonical | exact mls_message_payload_wf_canonical
    | exact mls_message_wf_canonical | exact pending_commit_snapshot_wf_canonical | apply Forall_nil ].
Qed.

Lemma all_types_wf : Forall (fun p => wf (snd p)) all_types.
Proof.
  apply Forall_map, (Forall_decided (wfb false)); [intro t; apply wfb_wfP|].
  change (Forall wf (dependent_types ++ [T_Snapshot])). apply Forall_app. split.
  - apply (Forall_impl _ (fun t => @proj1 _ _) dependent_types_wf_canonical).
  - apply Forall_cons; [exact snapshot_wf|apply Forall_nil].
Qed.

(* Which types are canonical (a decoded value re-encodes to exactly the bytes consumed):
   every type of the table except those holding a hash map.  The first argument of
   [has_hashmap] is a fuel that its definition never looks at. *)
Lemma canonical_types :
  Forall (fun p => has_hashmap 0 (snd p) = true \/ canonicalP (snd p)) all_types.
Proof.
  apply (Forall_map snd (fun t => has_hashmap 0 t = true \/ canonicalP t)).
  apply (Forall_decided (fun t => has_hashmap 0 t || canonicalb t)).
  - intros t H. apply orb_true_iff in H. destruct H as [H|H]; [left; exact H|right].
    apply canonicalb_canonicalP, H.
  - change (Forall (fun t => has_hashmap 0 t = true \/ canonicalP t) dependent_types).
    apply (Forall_impl _ (fun t H => or_intror (proj2 H)) dependent_types_wf_canonical).
Qed.

(* the entries that are excused from canonicity; Props/C12 lists them *)
Definition hashmap_type_names : list string :=
  map fst (filter (fun p => has_hashmap 0 (snd p)) all_types).

(* the stored snapshot: every field survives a write / read *)
Lemma snapshot_roundtrip v bs rest :
  vwf T_Snapshot v = true -> encode T_Snapshot v = Some bs -> decode T_Snapshot None (bs ++ rest) = DOk (v, rest).
Proof. apply roundtrip. exact snapshot_wf. Qed.
