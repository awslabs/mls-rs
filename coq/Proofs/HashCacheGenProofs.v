(* The translated tree-hash cache code (Gen/HashCacheGen.v, from tree_kem/tree_hash.rs) is the model the cache
   theorems are about (Model/HashCache.v), and the leaves batch_edit lists are those the theorems need. *)
From Coq Require Import NArith List String.
From MlsV Require Import Res TreeMathGen HashCache HashCacheGen.
Import ListNotations.
Local Open Scope N_scope.

Lemma gen_hash_for_leaf_is_model l leaf : gen_hash_for_leaf l leaf = hash_for_leaf l leaf.
Proof. reflexivity. Qed.

Lemma gen_hash_for_parent_is_model p flt lh rh : gen_hash_for_parent p flt lh rh = hash_for_parent p flt lh rh.
Proof. reflexivity. Qed.

Lemma bind_ext {A B} (m : res A) (f g : A -> res B) : (forall x, f x = g x) -> bind m f = bind m g.
Proof. intro H. destruct m; [apply H|reflexivity|reflexivity]. Qed.

(* the code pushes the parent inline where the model calls push_parent; the loops agree step by step *)
Lemma gen_leaf_pass_is_model pay t flt nl : forall ls c q, gen_leaf_pass pay t flt nl ls c q = leaf_pass pay t flt nl ls c q.
Proof.
  induction ls as [|l ls IH]; intros c q; cbn [gen_leaf_pass leaf_pass]; [reflexivity|].
  destruct (l <? nl); [|apply IH]. apply bind_ext. intro c'. unfold push_parent.
  destruct (parent_sibling (2 * l) nl); [apply IH|reflexivity|reflexivity].
Qed.

Lemma gen_queue_pass_is_model pay t flt nl : forall fuel q c, gen_queue_pass pay fuel t flt nl q c = queue_pass pay fuel t flt nl q c.
Proof.
  induction fuel as [|f IH]; intros q c; destruct q as [|n q]; cbn [gen_queue_pass queue_pass]; try reflexivity.
  do 5 (apply bind_ext; intro). unfold push_parent.
  destruct (parent_sibling n nl); [apply IH|reflexivity|reflexivity].
Qed.

Theorem gen_tree_hash_is_model pay c t ls flt nl : gen_tree_hash pay c t ls flt nl = tree_hash pay c t ls flt nl.
Proof.
  unfold gen_tree_hash, tree_hash. do 2 (apply bind_ext; intro). rewrite gen_leaf_pass_is_model.
  apply bind_ext. intro cq. apply gen_queue_pass_is_model.
Qed.

Theorem gen_hash_cache_is_model : forall pay c t ls flt nl upd,
  gen_tree_hash pay c t ls flt nl = tree_hash pay c t ls flt nl /\
  gen_update_hashes pay c t upd = update_hashes pay c t upd /\
  gen_initialize_hashes pay c t = initialize_hashes pay c t.
Proof.
  intros. split; [|split; [|unfold gen_initialize_hashes, initialize_hashes; destruct c; [|reflexivity]]]; apply gen_tree_hash_is_model.
Qed.

(* the callers: batch_edit lists the removed, the updated and the added leaves; every other caller lists the one
   leaf whose direct path it has just rewritten *)
Theorem gen_batch_edit_hash_leaves_is_model removes updated added :
  gen_batch_edit_hash_leaves removes updated added = removes ++ updated ++ added.
Proof. reflexivity. Qed.

Local Open Scope string_scope.
Theorem gen_hash_sites_are_the_known_ones : gen_hash_sites =
  [("update_parent_hashes", ["[index]"; "[index]"]);
   ("encap", ["[self_index]"]);
   ("process_commit", ["[sender]"]);
   ("commit_internal", ["[provisional_private_tree.self_index]"]);
   ("add_leaves", ["added"])].
Proof. reflexivity. Qed.
