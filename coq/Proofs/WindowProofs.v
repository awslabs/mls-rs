(* The observer's epoch window (translated arithmetic + admission model). *)
From Coq Require Import NArith List.
From MlsV Require Import Res WindowGen Admission.
Import ListNotations.
Local Open Scope N_scope.

(* the translated code never panics and computes the saturating difference *)
Theorem window_code_total epoch jitter :
  epoch < two64 -> jitter < two64 -> min_epoch_available_code epoch jitter = Ok (min_epoch_saturating epoch jitter).
Proof. intros He Hj. unfold min_epoch_available_code, min_epoch_saturating, ret. reflexivity. Qed.

Definition observer_view (gid epoch jitter : N) : aview :=
  {| av_version_ok := true; av_gid := gid; av_epoch := epoch; av_min := Some (min_epoch_saturating epoch jitter); av_stored := [] |}.

(* the current epoch is always inside the window, whatever the jitter *)
Theorem window_contains_current (gid epoch jitter : N) : min_epoch_saturating epoch jitter <= epoch.
Proof. apply N.le_sub_l. Qed.

(* ciphertexts of the last [jitter] epochs are let through, older ones refused *)
Theorem window_admission gid epoch jitter e (ct : ctype) :
  check_metadata (observer_view gid epoch jitter) gid e CtApplication true =
    if e <? epoch - jitter then AInvalidEpoch else AOk.
Proof. unfold check_metadata, observer_view, min_epoch_saturating. cbn. rewrite N.eqb_refl. cbn. reflexivity. Qed.

(* handshake messages: the observer admits exactly what a member of the same epoch admits *)
Theorem observer_admits_handshake_like_member v1 v2 gid e ct cipher :
  ct <> CtApplication -> av_version_ok v1 = av_version_ok v2 -> av_gid v1 = av_gid v2 -> av_epoch v1 = av_epoch v2 ->
  check_metadata v1 gid e ct cipher = check_metadata v2 gid e ct cipher.
Proof.
  intros Nc Ev Eg Ee. unfold check_metadata. rewrite Ev, Eg, Ee. destruct ct; [contradiction|reflexivity|reflexivity].
Qed.
