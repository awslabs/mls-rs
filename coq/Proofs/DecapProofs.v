(* The receiver's side of TreeKEM (Model/Decap.v).  Soundness and completeness both rest on the stack algorithm for
   resolutions computing the structural resolution [reso_spec], in which the node the receiver walks down to occurs. *)
From Coq Require Import NArith List Bool Arith Lia.
From MlsV Require Import Res TreeMathGen TreeMathProofs Tree TreeProofs TreeWF Kem Priv PrivProofs Decap.
Import ListNotations.
Local Open Scope N_scope.

Lemma index_of_some x l : forall i, index_of x l = Some i -> nth_error l i = Some x.
Proof.
  induction l as [|y r IH]; intros i; cbn [index_of]; [discriminate|].
  destruct (N.eqb_spec x y) as [->|Ne]; [intro E; inversion E; reflexivity|].
  destruct (index_of x r) as [j|]; cbn [option_map]; [|discriminate]. intro E. inversion E. cbn [nth_error]. apply IH. reflexivity.
Qed.

Lemma index_of_in x l : In x l -> exists i, index_of x l = Some i.
Proof.
  induction l as [|y r IH]; [intros []|]. intro I. cbn [index_of].
  destruct (N.eqb_spec x y) as [->|Ne]; [exists O; reflexivity|].
  destruct I as [E|I]; [congruence|]. destruct (IH I) as [i ->]. exists (S i). reflexivity.
Qed.

Lemma keep_not_excluded excl x : keep excl x = not_excluded excl x.
Proof.
  unfold keep, not_excluded, mem. destruct (existsb (N.eqb x) (map (fun l => 2 * l) excl)) eqn:M.
  - apply existsb_eqb_in in M. apply in_map_iff in M. destruct M as (l & <- & I).
    rewrite <- N.negb_even, N.even_mul, half_double. apply existsb_eqb_in in I. rewrite I. reflexivity.
  - cbn [negb]. destruct (N.odd x) eqn:O; [reflexivity|]. cbn [orb].
    destruct (existsb (N.eqb (x / 2)) excl) eqn:M2; [|reflexivity]. exfalso.
    apply existsb_eqb_in in M2. assert (In x (map (fun l => 2 * l) excl)) as I.
    { apply in_map_iff. exists (x / 2). split; [|exact M2].
      destruct (even_odd_cases x) as [[_ E]|[Ev _]]; [lia|]. rewrite <- N.negb_even, Ev in O. discriminate. }
    apply existsb_eqb_in in I. congruence.
Qed.

(* soundness: whatever decap selects was sealed to a key the receiver holds *)
Theorem decap_select_sound ks t me pr k excl i key :
  PrivOK ks me pr ->
  decap_select t me pr k excl = Ok (Some (i, key)) ->
  exists recips x, sealed_to t (lvl_node (N.of_nat k) me) excl = Ok recips /\
                   nth_error recips i = Some x /\ ks x = Some key.
Proof.
  intros P E. unfold decap_select in E. apply bind_ok in E. destruct E as (r & R & E).
  unfold sealed_to. rewrite R. cbn [bind ret]. set (rp := resolved_pos t me pr k) in *.
  destruct (index_of (lvl_node (N.of_nat rp) me) (filter (keep excl) r)) as [i0|] eqn:I; [|discriminate].
  destruct (nth_error pr rp) as [[key0|]|] eqn:K; try discriminate. injection E as -> ->.
  exists (filter (not_excluded excl) r), (lvl_node (N.of_nat rp) me). split; [reflexivity|]. split.
  - rewrite <- (filter_ext _ _ (keep_not_excluded excl)). apply index_of_some. exact I.
  - apply (P rp key K).
Qed.

Lemma resolution_fuel_mono f : forall t s r m, resolution f t s = Ok r -> resolution (f + m) t s = Ok r.
Proof.
  induction f as [|f IH]; intros t s r m; cbn [resolution]; [discriminate|]. cbn [plus resolution].
  destruct s as [|x rest]; [intro E; exact E|].
  destruct (get t x) as [[id|um]|].
  1, 2: intro E; apply bind_ok in E; destruct E as (r0 & R & E); rewrite (IH _ _ _ m R); exact E.
  destruct (N.even x); [apply IH|].
  destruct (left_unchecked x) as [l| |]; cbn [bind]; try discriminate.
  destruct (right_unchecked x) as [rr| |]; cbn [bind]; try discriminate. apply IH.
Qed.

(* 29: the levels for which left_ok / right_ok (TreeMathProofs) show that the u32 arithmetic of the code does not overflow *)
Lemma resolution_spec t k : forall j f rest r, (k <= 29)%nat ->
  resolution f t rest = Ok r ->
  resolution (sz k + f) t (node (N.of_nat k) j :: rest) = Ok (reso_spec t k j ++ r).
Proof.
  induction k as [|k IH]; intros j f rest r L R.
  - cbn [sz plus resolution reso_spec N.of_nat].
    destruct (get t (node 0 j)) as [[id|um]|].
    + rewrite R. reflexivity.
    + rewrite R. cbn [bind ret]. rewrite <- app_comm_cons. reflexivity.
    + rewrite node_even_0. exact R.
  - cbn [sz reso_spec]. replace (2 * sz k + 1 + f)%nat with (S (sz k + (sz k + f)))%nat by lia. cbn [resolution].
    pose proof (resolution_fuel_mono f t rest r (sz k + sz k) R) as R'.
    replace (f + (sz k + sz k))%nat with (sz k + (sz k + f))%nat in R' by lia.
    destruct (get t (node (N.of_nat (S k)) j)) as [[id|um]|].
    + rewrite R'. reflexivity.
    + rewrite R'. cbn [bind ret]. rewrite <- app_comm_cons. reflexivity.
    + rewrite of_nat_S, node_odd_S.
      rewrite left_ok, right_ok by lia. cbn [bind].
      rewrite (IH (2 * j) (sz k + f)%nat (node (N.of_nat k) (2 * j + 1) :: rest) (reso_spec t k (2 * j + 1) ++ r)); [rewrite app_assoc; reflexivity|lia|].
      apply IH; [lia|exact R].
Qed.

Lemma sz_pow k : N.of_nat (sz k) = 2 * 2 ^ N.of_nat k - 1.
Proof.
  induction k as [|k IH]; [reflexivity|]. cbn [sz]. rewrite pow2_S.
  pose proof (pow2_pos (N.of_nat k)). lia.
Qed.

Lemma sz_mono a b : (a <= b)%nat -> (sz a <= sz b)%nat.
Proof. induction 1 as [|m L IH]; [lia|]. cbn [sz]. lia. Qed.

(* resolution_of runs with fuel 2 * length t + 4 (Model/Tree.v): that covers the subtree below any node of the tree *)
Lemma depth_fuel t d : small t -> total_leaf_count t = 2 ^ d -> (sz (N.to_nat d) <= 2 * length t + 3)%nat.
Proof.
  intros S Et. destruct (total_leaf_count_pow t d S Et) as (_ & Hn & Hlow).
  pose proof (sz_pow (N.to_nat d)) as Z. rewrite Nnat.N2Nat.id in Z.
  assert (2 ^ d <= tlen t + 2).
  { destruct (N.eq_dec d 0) as [->|Nz]; [cbn; lia|]. destruct Hlow as [->|Hlow]; [contradiction|].
    pose proof (N.mul_div_le (tlen t) 2 ltac:(lia)).
    replace d with (N.succ (d - 1)) by lia. rewrite N.pow_succ_r'. lia. }
  unfold tlen in *. lia.
Qed.

Lemma resolution_of_spec_fuel t k j : (k <= 29)%nat -> (sz k + 1 <= 2 * length t + 4)%nat ->
  resolution_of t (node (N.of_nat k) j) = Ok (reso_spec t k j).
Proof.
  intros L F. unfold resolution_of.
  replace (2 * length t + 4)%nat with ((sz k + 1) + (2 * length t + 4 - (sz k + 1)))%nat by lia.
  apply resolution_fuel_mono. rewrite <- (app_nil_r (reso_spec t k j)). apply resolution_spec; [exact L|reflexivity].
Qed.

Lemma level_fuel t d k : small t -> total_leaf_count t = 2 ^ d -> (k < N.to_nat d)%nat ->
  (k <= 29)%nat /\ (sz k + 1 <= 2 * length t + 4)%nat.
Proof.
  intros Sm Et Lk. destruct (total_leaf_count_pow t d Sm Et) as (Hd & _).
  pose proof (depth_fuel t d Sm Et). pose proof (sz_mono (S k) (N.to_nat d) Lk) as Mo. cbn [sz] in Mo. lia.
Qed.

Lemma resolution_of_level t d k j : small t -> total_leaf_count t = 2 ^ d -> (k < N.to_nat d)%nat ->
  resolution_of t (node (N.of_nat k) j) = Ok (reso_spec t k j).
Proof. intros Sm Et Lk. destruct (level_fuel t d k Sm Et Lk). apply resolution_of_spec_fuel; assumption. Qed.

Theorem resolution_of_spec t k j : (k <= 29)%nat -> node (N.of_nat k) j < tlen t ->
  resolution_of t (node (N.of_nat k) j) = Ok (reso_spec t k j).
Proof.
  intros L B. apply resolution_of_spec_fuel; [exact L|].
  pose proof (sz_pow k) as S. pose proof (pow2_pos (N.of_nat k)) as P. unfold node, tlen in B.
  assert (2 ^ N.of_nat k <= (2 * j + 1) * 2 ^ N.of_nat k) by nia. lia.
Qed.

Lemma down_le t me k : (down t me k <= k)%nat.
Proof. induction k as [|k IH]; cbn [down]; [lia|]. destruct (get t _); lia. Qed.

Lemma down_nonblank t me k : down t me k <> O -> get t (lvl_node (N.of_nat (down t me k)) me) <> None.
Proof.
  induction k as [|k IH]; cbn [down]; [congruence|].
  destruct (get t (lvl_node (N.of_nat (S k)) me)) eqn:G; [intros _; rewrite G; discriminate|exact IH].
Qed.

Lemma reso_spec_down t me k x :
  In x (reso_spec t (down t me k) (me / 2 ^ N.of_nat (down t me k))) -> In x (reso_spec t k (me / 2 ^ N.of_nat k)).
Proof.
  induction k as [|k IH]; cbn [down]; [intro I; exact I|].
  destruct (get t (lvl_node (N.of_nat (S k)) me)) eqn:G; [intro I; exact I|].
  intro I. apply IH in I. cbn [reso_spec]. unfold lvl_node in G. rewrite G.
  apply in_or_app. destruct (proj1 (child_of me k _) eq_refl) as [E|E]; rewrite E in I; [left|right]; exact I.
Qed.

Lemma reso_spec_head t k j n : get t (node (N.of_nat k) j) = Some n -> In (node (N.of_nat k) j) (reso_spec t k j).
Proof. intro G. destruct k; cbn [reso_spec]; rewrite G; destruct n; left; reflexivity. Qed.

Lemma reso_spec_unmerged t k j um l : get t (node (N.of_nat k) j) = Some (Par um) -> In l um -> In (2 * l) (reso_spec t k j).
Proof. intros G I. destruct k; cbn [reso_spec]; rewrite G; right; apply in_map_iff; exists l; split; auto. Qed.

(* walking down from the common ancestor ends at a non-blank node of the receiver's side, at the latest at
   its leaf; that node is in the resolution *)
Lemma down_in_reso t me k : get t (2 * me) <> None ->
  In (lvl_node (N.of_nat (down t me k)) me) (reso_spec t k (me / 2 ^ N.of_nat k)).
Proof.
  intro Nb. apply reso_spec_down.
  destruct (get t (lvl_node (N.of_nat (down t me k)) me)) as [n|] eqn:G; [eapply reso_spec_head; exact G|].
  destruct (Nat.eq_dec (down t me k) 0) as [Z|NZ]; [|destruct (down_nonblank t me k NZ G)].
  rewrite Z in G. cbn [N.of_nat] in G. rewrite lvl_node_0 in G. contradiction.
Qed.

(* find_ciphertext_pos drops no node of a receiver that was not added by the commit *)
Lemma keep_level excl me i : ~ In me excl -> keep excl (lvl_node (N.of_nat i) me) = true.
Proof.
  intro Nx. unfold keep. destruct i as [|i].
  - cbn [N.of_nat]. rewrite lvl_node_0, half_double. destruct (mem me excl) eqn:M; [apply existsb_eqb_in in M; contradiction|apply orb_true_r].
  - unfold lvl_node. rewrite of_nat_S, <- N.negb_even, node_odd_S. reflexivity.
Qed.

Lemma decap_select_found t me pr k excl r key :
  resolution_of t (lvl_node (N.of_nat k) me) = Ok r -> ~ In me excl ->
  In (lvl_node (N.of_nat (resolved_pos t me pr k)) me) r -> nth_error pr (resolved_pos t me pr k) = Some (Some key) ->
  exists i, decap_select t me pr k excl = Ok (Some (i, key)).
Proof.
  intros R Nx I K. unfold decap_select. rewrite R. cbn [bind ret]. cbv zeta.
  destruct (index_of_in _ _ (proj2 (filter_In (keep excl) _ r) (conj I (keep_level excl me _ Nx)))) as [i Ei].
  rewrite Ei, K. exists i. reflexivity.
Qed.

(* completeness: a member of the tree always finds its ciphertext *)
Theorem decap_select_complete_res t me pr k excl id leafkey :
  resolution_of t (lvl_node (N.of_nat k) me) = Ok (reso_spec t k (me / 2 ^ N.of_nat k)) ->
  get t (2 * me) = Some (Leaf id) -> ~ In me excl ->
  nth_error pr O = Some (Some leafkey) ->
  (* the receiver holds the key of its first non-blank node below the common ancestor, or is
     listed there as an unmerged leaf *)
  (let k' := down t me k in
   (exists key, nth_error pr k' = Some (Some key)) \/
   (exists um, get t (lvl_node (N.of_nat k') me) = Some (Par um) /\ In me um)) ->
  exists i key, decap_select t me pr k excl = Ok (Some (i, key)).
Proof.
  intros R Gl Nx K0 H. cbn zeta in H.
  pose proof (down_in_reso t me k ltac:(congruence)) as Ik.
  pose proof (fun key => decap_select_found t me pr k excl _ key R Nx) as Found. unfold resolved_pos in Found. cbv zeta in Found.
  destruct (nth_error pr (down t me k)) as [[key|]|] eqn:Hk.
  1: destruct (Found key Ik Hk) as [i E]; exists i, key; exact E.
  (* no key there: the receiver is an unmerged leaf of that node, and uses its leaf key *)
  all: destruct H as [[key Hk']|[um [Gp Iu]]]; [discriminate|].
  all: destruct (Found leafkey) as [i E]; [|exact K0|exists i, leafkey; exact E].
  all: cbn [N.of_nat]; rewrite lvl_node_0; apply reso_spec_down; eapply reso_spec_unmerged; eassumption.
Qed.

Theorem decap_select_complete t me pr k excl id leafkey :
  (k <= 29)%nat -> lvl_node (N.of_nat k) me < tlen t ->
  get t (2 * me) = Some (Leaf id) -> ~ In me excl ->
  nth_error pr O = Some (Some leafkey) ->
  (let k' := down t me k in
   (exists key, nth_error pr k' = Some (Some key)) \/
   (exists um, get t (lvl_node (N.of_nat k') me) = Some (Par um) /\ In me um)) ->
  exists i key, decap_select t me pr k excl = Ok (Some (i, key)).
Proof.
  intros L B Gl Nx K0 H. eapply decap_select_complete_res; try eassumption.
  unfold lvl_node. apply resolution_of_spec; assumption.
Qed.

Lemma member_in_reso t : forall k j l, l / 2 ^ N.of_nat k = j -> get t (2 * l) <> None -> exists x, In x (reso_spec t k j).
Proof.
  induction k as [|k IH]; intros j l E Nb; cbn [reso_spec].
  - cbn [N.of_nat] in *. rewrite N.pow_0_r, N.div_1_r in E. subst j. rewrite node_0.
    destruct (get t (2 * l)) as [[id|um]|]; [eexists; left; reflexivity|eexists; left; reflexivity|congruence].
  - destruct (get t (node (N.of_nat (S k)) j)) as [[id|um]|]; [eexists; left; reflexivity|eexists; left; reflexivity|].
    apply child_of in E.
    destruct E as [Hc|Hc]; destruct (IH _ l Hc Nb) as [x I]; exists x; apply in_or_app; [left|right]; exact I.
Qed.

Lemma member_resolution_nonempty t k j l : resolution_of t (node (N.of_nat k) j) = Ok (reso_spec t k j) ->
  l / 2 ^ N.of_nat k = j -> get t (2 * l) <> None -> resolution_empty t (node (N.of_nat k) j) = Ok false.
Proof.
  intros R E Nb. unfold resolution_empty. rewrite R. cbn [bind ret].
  destruct (member_in_reso t k j l E Nb) as [x I]. destruct (reso_spec t k j); [destruct I|reflexivity].
Qed.

Theorem receiver_position_not_filtered t me k id :
  (k <= 29)%nat -> lvl_node (N.of_nat k) me < tlen t -> get t (2 * me) = Some (Leaf id) ->
  resolution_empty t (lvl_node (N.of_nat k) me) = Ok false.
Proof.
  intros L B Gl. apply (member_resolution_nonempty t k _ me); [apply resolution_of_spec; assumption|reflexivity|congruence].
Qed.

(* non-vacuity: 4 leaves, leaf 1 blank... leaf 2's side: parent 5 non-blank with unmerged leaf 3;
   receiver 3 (no key at level 1) opens position 1 with its leaf key; receiver 2 position 0 with
   the parent key *)
Example decap_ex :
  let t := [Some (Leaf 10); Some (Par []); None; Some (Par []); Some (Leaf 12); Some (Par [3]); Some (Leaf 13)] in
  decap_select t 3 [Some 73; None; None] 1 [] = Ok (Some (1%nat, 73)) /\
  decap_select t 2 [Some 72; Some 75; None] 1 [] = Ok (Some (0%nat, 75)).
Proof. vm_compute. split; reflexivity. Qed.
