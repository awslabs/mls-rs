(* The must-hit checker of Model/MustHit.v is sound: `post` over-approximates the states in which a
   successful run can end; if (trigger executed, target not) is not among them, every successful run
   that executes a trigger executes the target. *)
From Coq Require Import List Bool String.
From MlsV Require Import Effects MustHit.
Import ListNotations.

Section MustHitSound.
  Variable trig tg : string -> bool.
  Notation post1 := (post1 trig tg).
  Notation post := (post trig tg).

  Lemma postl_eq : forall l X,
    (fix postl (l : list ev) (X : sset) {struct l} : sset :=
       match l with [] => X | x :: r => postl r (post1 x X) end) l X = post l X.
  Proof. induction l as [|x r IH]; intro X; [reflexivity|]. cbn [MustHit.post]. apply IH. Qed.

  Fixpoint post_alts (bs : list (list ev)) (X : sset) : sset :=
    match bs with [] => sempty | b :: r => sunion (post b X) (post_alts r X) end.

  Lemma post1_alt b bs X : post1 (EAlt (b :: bs)) X = post_alts (b :: bs) X.
  Proof.
    cbn [MustHit.post1 post_alts]. rewrite postl_eq. f_equal.
    induction bs as [|c r IH]; [reflexivity|]. cbn [post_alts]. rewrite postl_eq, IH. reflexivity.
  Qed.

  Lemma post1_loop body X : post1 (ELoop body) X =
    let X1 := sunion X (post body X) in
    let X2 := sunion X1 (post body X1) in
    let X3 := sunion X2 (post body X2) in
    if ssub (post body X3) X3 then X3 else stop.
  Proof. cbn [MustHit.post1]. rewrite !postl_eq. reflexivity. Qed.

  Lemma smem_union_l s X Y : smem s X = true -> smem s (sunion X Y) = true.
  Proof. destruct s as [[|] [|]]; cbn; intro H; rewrite H; reflexivity. Qed.
  Lemma smem_union_r s X Y : smem s Y = true -> smem s (sunion X Y) = true.
  Proof. destruct s as [[|] [|]]; cbn; intro H; rewrite H; apply orb_true_r. Qed.
  Lemma smem_single s : smem s (ssingle s) = true.
  Proof. destruct s as [[|] [|]]; reflexivity. Qed.
  Lemma smem_image f s X : smem s X = true -> smem (f s) (simage f X) = true.
  Proof.
    unfold simage. destruct s as [[|] [|]]; cbn [smem]; intro H; rewrite H.
    - apply smem_union_r, smem_union_r, smem_single.
    - apply smem_union_r, smem_union_l, smem_single.
    - apply smem_union_l, smem_union_r, smem_single.
    - apply smem_union_l, smem_union_l, smem_single.
  Qed.
  Lemma smem_sub s X Y : ssub X Y = true -> smem s X = true -> smem s Y = true.
  Proof.
    unfold ssub. rewrite !andb_true_iff. intros [[[A B] C] D]. destruct s as [[|] [|]]; cbn [smem]; intro H; rewrite H in *; cbn in *; assumption.
  Qed.
  Lemma smem_stop s : smem s stop = true.
  Proof. destruct s as [[|] [|]]; reflexivity. Qed.

  Scheme mrun1_mut := Minimality for mrun1 Sort Prop
    with mruns_mut := Minimality for mruns Sort Prop
    with mloops_mut := Minimality for mloops Sort Prop.
  Combined Scheme mrun_mutind from mrun1_mut, mruns_mut, mloops_mut.

  Lemma post_alts_in b bs X s : In b bs -> smem s (post b X) = true -> smem s (post_alts bs X) = true.
  Proof.
    induction bs as [|c r IH]; [intros []|]. intros [->|I] H; cbn [post_alts]; [apply smem_union_l; exact H|apply smem_union_r, IH; assumption].
  Qed.

  Definition ends_in (X : sset) (o : out2) : Prop := match o with Failed2 => True | Done2 s => smem s X = true end.

  Theorem post_sound :
    (forall e s o, mrun1 trig tg e s o -> forall X, smem s X = true -> ends_in (post1 e X) o) /\
    (forall l s o, mruns trig tg l s o -> forall X, smem s X = true -> ends_in (post l X) o) /\
    (* X is an invariant of the body: closed under its post, and it contains the start state *)
    (forall body s o, mloops trig tg body s o -> forall X, ssub (post body X) X = true -> smem s X = true -> ends_in X o).
  Proof.
    apply mrun_mutind.
    - intros l s X H. exact I.
    - intros l s X H. exact H.
    - intros w l s X H. apply smem_image, H.
    - intros w l s X H. exact I.
    - intros w l s X H. apply smem_image, H.
    - intros bs b s o In_b _ IH X H. destruct bs as [|b0 bs']; [destruct In_b|]. rewrite post1_alt.
      specialize (IH X H). destruct o; [exact I|]. exact (post_alts_in _ _ _ _ In_b IH).
    - intros s X H. exact H.
    - intros body s o _ IH X H. rewrite post1_loop. cbn zeta.
      set (X1 := sunion X (post body X)). set (X2 := sunion X1 (post body X1)). set (X3 := sunion X2 (post body X2)).
      destruct (ssub (post body X3) X3) eqn:C; [|destruct o; [exact I|apply smem_stop]].
      apply (IH X3 C). unfold X3, X2, X1. apply smem_union_l, smem_union_l, smem_union_l, H.
    - intros s X H. exact H.
    - intros e rest s _ _ X H. exact I.
    - intros e rest s s1 o _ IH1 _ IH2 X H. exact (IH2 _ (IH1 X H)).
    - intros body s X C H. exact H.
    - intros body s _ _ X C H. exact I.
    - intros body s s1 o _ IH1 _ IH2 X C H. exact (IH2 X C (smem_sub _ _ _ C (IH1 X H))).
  Qed.

  Theorem must_hit_chk_sound evs : must_hit_chk trig tg evs = true -> must_hit trig tg evs.
  Proof.
    unfold must_hit_chk, must_hit. intros C s R Ht. destruct post_sound as (_ & PS & _).
    pose proof (PS evs (false, false) (Done2 s) R (ssingle (false, false)) (smem_single _)) as M.
    destruct s as [t h]. cbn [fst snd ends_in] in *. subst t. destruct h; [reflexivity|]. cbn [smem] in M. rewrite M in C. discriminate.
  Qed.
End MustHitSound.
