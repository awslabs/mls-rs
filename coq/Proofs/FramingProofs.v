(* Coverage: the bytes that are signed / MACed determine every field of the message. *)
From Coq Require Import NArith List Bool String.
From MlsV Require Import Codec CodecProofs CodecTypes CodecTypesProofs Hkdf Framing.
Import ListNotations.
Local Open Scope N_scope.

Lemma sign_content_wf : wf T_SignContent.
Proof. apply wfb_wfP. reflexivity. Qed.

(* equal signed bytes => equal version, wire format, content and (for members) group context *)
Theorem tbs_injective v1 v2 w1 w2 fc1 fc2 c1 c2 b :
  vwf T_AuthenticatedContentTBS (tbs_val v1 w1 fc1 c1) = true ->
  vwf T_AuthenticatedContentTBS (tbs_val v2 w2 fc2 c2) = true ->
  encode T_AuthenticatedContentTBS (tbs_val v1 w1 fc1 c1) = Some b ->
  encode T_AuthenticatedContentTBS (tbs_val v2 w2 fc2 c2) = Some b ->
  v1 = v2 /\ w1 = w2 /\ fc1 = fc2 /\ (member_like fc1 = true -> c1 = c2).
Proof.
  intros W1 W2 E1 E2.
  destruct (unique_decoding _ _ _ _ _ [] [] (proj1 tbs_wf_canonical) W1 W2 E1 E2 eq_refl) as [Ev _].
  unfold tbs_val in Ev. injection Ev as Hv Hw Hf Hc. subst. repeat split; try reflexivity.
  intro M. rewrite M in Hc. congruence.
Qed.

(* equal MACed bytes => additionally equal signature / confirmation tag *)
Theorem tbm_injective v1 v2 w1 w2 fc1 fc2 c1 c2 a1 a2 b :
  vwf T_AuthenticatedContentTBM (tbm_val v1 w1 fc1 c1 a1) = true ->
  vwf T_AuthenticatedContentTBM (tbm_val v2 w2 fc2 c2 a2) = true ->
  encode T_AuthenticatedContentTBM (tbm_val v1 w1 fc1 c1 a1) = Some b ->
  encode T_AuthenticatedContentTBM (tbm_val v2 w2 fc2 c2 a2) = Some b ->
  v1 = v2 /\ w1 = w2 /\ fc1 = fc2 /\ a1 = a2 /\ (member_like fc1 = true -> c1 = c2).
Proof.
  intros W1 W2 E1 E2.
  destruct (unique_decoding _ _ _ _ _ [] [] (proj1 tbm_wf_canonical) W1 W2 E1 E2 eq_refl) as [Ev _].
  unfold tbm_val in Ev. injection Ev as Hv Hw Hf Hc Ha. subst. repeat split; try reflexivity.
  intro M. rewrite M in Hc. congruence.
Qed.

Theorem sign_input_injective l c1 c2 b : sign_input l c1 = Some b -> sign_input l c2 = Some b -> c1 = c2.
Proof.
  unfold sign_input. intros E1 E2.
  assert (W : forall c, vwf T_SignContent (VCons (VBytes (label_bytes ("MLS 1.0 " ++ l))) (VCons (VBytes c) VNil)) = true) by reflexivity.
  destruct (unique_decoding _ _ _ _ _ [] [] sign_content_wf (W c1) (W c2) E1 E2 eq_refl) as [Ev _].
  congruence.
Qed.

(* ---- acceptance under idealised signature and MAC ----
   [signed pk m]: the holder of the signature key behind pk signed exactly the byte string m.
   [maced k m]: somebody who knows k computed the MAC of exactly m.
   The two hypotheses are the usual unforgeability idealisations; they are hypotheses of the
   theorems below (section variables), not axioms. *)
Section Acceptance.
  Variable key : Type.
  Variable verify : key -> list N -> list N -> bool.
  Variable signed : key -> list N -> Prop.
  Hypothesis unforgeable : forall pk m s, verify pk m s = true -> signed pk m.
  Variable H : hash_alg.
  Variable maced : list N -> list N -> Prop.
  Hypothesis mac_unforgeable : forall k m t, t = hmac H k m -> maced k m.

  (* what verify_plaintext_authentication checks for a member's public message *)
  Definition accept_public (pk : key) (mkey : list N) (ver ctx pm : val) : bool :=
    match public_sign_input ver ctx pm, public_membership_tag H mkey ver ctx pm, pm_tag pm with
    | Some si, Some tag, Some t => verify pk si (auth_signature (pm_auth pm)) && list_N_eqb t tag
    | _, _, _ => false
    end.

  (* an accepted message: the sender's key signed exactly this content for exactly this group
     context, and the tag was made with the membership key over content + signature *)
  Theorem accepted_public_is_authentic pk mkey ver ctx pm :
    accept_public pk mkey ver ctx pm = true ->
    exists tbs tbm,
      encode T_AuthenticatedContentTBS (tbs_val ver 1 (pm_content pm) ctx) = Some tbs
      /\ (exists si, sign_input "FramedContentTBS" tbs = Some si /\ signed pk si)
      /\ encode T_AuthenticatedContentTBM (tbm_val ver 1 (pm_content pm) ctx (pm_auth pm)) = Some tbm
      /\ maced mkey tbm.
  Proof.
    unfold accept_public, public_sign_input, public_membership_tag.
    destruct (encode T_AuthenticatedContentTBS _) as [tbs|] eqn:Et; [|discriminate].
    destruct (sign_input _ tbs) as [si|] eqn:Es; [|discriminate].
    destruct (encode T_AuthenticatedContentTBM _) as [tbm|] eqn:Em; [|discriminate].
    destruct (pm_tag pm) as [t|]; [|discriminate].
    intro A. apply andb_true_iff in A. destruct A as [V T]. apply list_N_eqb_eq in T.
    exists tbs, tbm. split; [reflexivity|]. split; [exists si; split; [exact Es|eapply unforgeable; exact V]|].
    split; [reflexivity|]. eapply mac_unforgeable. exact T.
  Qed.

  (* hence: if what the honest sender signed was (ver', wire', fc', ctx'), the accepted message
     has that very content and was made for the receiver's own group context *)
  Corollary accepted_content_is_senders pk mkey ver ctx pm ver' w' fc' ctx' tbs' si' :
    accept_public pk mkey ver ctx pm = true ->
    (forall si, signed pk si -> si = si') ->                       (* the only thing the key ever signed *)
    encode T_AuthenticatedContentTBS (tbs_val ver' w' fc' ctx') = Some tbs' ->
    sign_input "FramedContentTBS" tbs' = Some si' ->
    vwf T_AuthenticatedContentTBS (tbs_val ver 1 (pm_content pm) ctx) = true ->
    vwf T_AuthenticatedContentTBS (tbs_val ver' w' fc' ctx') = true ->
    ver = ver' /\ w' = 1 /\ pm_content pm = fc' /\ (member_like fc' = true -> ctx = ctx').
  Proof.
    intros A Only Et' Es' W W'.
    destruct (accepted_public_is_authentic _ _ _ _ _ A) as (tbs & tbm & Et & (si & Es & Sg) & _).
    pose proof (Only si Sg) as ->. pose proof (sign_input_injective _ _ _ _ Es Es') as ->.
    destruct (tbs_injective _ _ _ _ _ _ _ _ _ W W' Et Et') as (A1 & A2 & A3 & A4).
    repeat split; try congruence. intro M. apply A4. rewrite A3. exact M.
  Qed.
End Acceptance.

(* PrivateMessage: every field is AEAD-authenticated data or an AEAD ciphertext *)
Lemma aad_wf : wf T_PrivateContentAAD.
Proof. apply wfb_wfP. reflexivity. Qed.

Lemma content_type_vwf ct : vwf T_ContentType ct = true.
Proof.
  unfold T_ContentType, tenum. cbn [tcases vwf]. destruct ct as [| | | | | | |d q]; try reflexivity.
  destruct (d =? 1); [reflexivity|]. destruct (d =? 2); [reflexivity|]. destruct (d =? 3); reflexivity.
Qed.

Theorem private_message_covered m1 m2 b1 b2 aad :
  encode T_PrivateMessage m1 = Some b1 -> encode T_PrivateMessage m2 = Some b2 ->
  encode T_PrivateContentAAD (prm_aad m1) = Some aad -> encode T_PrivateContentAAD (prm_aad m2) = Some aad ->
  prm_esd m1 = prm_esd m2 -> prm_ct m1 = prm_ct m2 -> m1 = m2.
Proof.
  intros E1 E2 A1 A2 Hs Hc.
  destruct (encode_tstruct _ _ _ E1) as (g1 & ? & -> & e1 & ? & -> & ct1 & ? & -> & ad1 & ? & -> & s1 & ? & -> & c1 & ? & -> & ->).
  destruct (encode_tstruct _ _ _ E2) as (g2 & ? & -> & e2 & ? & -> & ct2 & ? & -> & ad2 & ? & -> & s2 & ? & -> & c2 & ? & -> & ->).
  cbn [prm_aad prm_esd prm_ct] in *. subst.
  assert (W : forall g e ct ad, vwf T_PrivateContentAAD (VCons g (VCons e (VCons ct (VCons ad VNil)))) = true).
  { intros g e ct ad. unfold T_PrivateContentAAD, tstruct. cbn [fold_right vwf]. rewrite content_type_vwf. reflexivity. }
  destruct (unique_decoding _ _ _ _ _ [] [] aad_wf (W _ _ _ _) (W _ _ _ _) A1 A2 eq_refl) as [Ev _].
  congruence.
Qed.
