(* Unmerged-leaf consistency of the ratchet tree (WF3) and soundness of resolutions:
   for every tree reachable by the commit operations, every unmerged leaf listed at a parent
   is a NON-BLANK leaf lying BELOW that parent; hence a resolution only ever contains
   non-blank nodes - in particular never a removed (blank) leaf.
   Before that: [ancestor] with the arithmetic of levels, and what [get] is, node by node, after each of the
   blanking operations - the invariant proofs of the later files reason on these. *)
From Coq Require Import NArith List Lia.
From MlsV Require Import Res TreeMathGen TreeMathProofs Tree TreeProofs.
Import ListNotations.
Local Open Scope N_scope.

Definition ancestor (p l : N) : Prop := exists k j, p = node (k + 1) j /\ l / 2 ^ (k + 1) = j.

Definition wf3 (t : tree) : Prop :=
  forall p um, get t p = Some (Par um) ->
    forall l, In l um -> (exists id, get t (2 * l) = Some (Leaf id)) /\ ancestor p l.

Lemma child_of_N l k j : l / 2 ^ (k + 1) = j <-> l / 2 ^ k = 2 * j \/ l / 2 ^ k = 2 * j + 1.
Proof.
  rewrite <- div_pow2_succ. split.
  - intros <-. destruct (even_odd_cases (l / 2 ^ k)) as [[_ E]|[_ E]]; [left|right]; exact E.
  - intros [-> | ->]; [apply half_double|apply half_succ_double].
Qed.

Lemma child_of l k j : l / 2 ^ N.of_nat (S k) = j <-> l / 2 ^ N.of_nat k = 2 * j \/ l / 2 ^ N.of_nat k = 2 * j + 1.
Proof. rewrite of_nat_S. apply child_of_N. Qed.

Lemma ancestor_node_N k j l : ancestor (node (k + 1) j) l <-> l / 2 ^ (k + 1) = j.
Proof.
  split; [|intro E; exists k, j; split; [reflexivity|exact E]].
  intros (k' & j' & E & Ej). apply node_inj in E. destruct E as [Ek ->]. apply N.add_cancel_r in Ek. subst k'. exact Ej.
Qed.

Lemma ancestor_node k j l : ancestor (node (N.of_nat (S k)) j) l <-> l / 2 ^ N.of_nat (S k) = j.
Proof. rewrite of_nat_S. apply ancestor_node_N. Qed.

Lemma ancestor_not_leaf p l j : ancestor p l -> p <> 2 * j.
Proof. intros (k & i & -> & _). apply not_leaf_node_succ. Qed.

Lemma above_removed l m p : 2 * m = 2 * l \/ ancestor (2 * m) l -> ancestor p m -> p = 2 * l \/ ancestor p l.
Proof. intros [E|A] Ap; [right; replace l with m by lia; exact Ap|destruct (ancestor_not_leaf _ _ m A eq_refl)]. Qed.

Lemma children_sib (P : N -> Prop) j : P (2 * (j / 2)) /\ P (2 * (j / 2) + 1) <-> P j /\ P (sib j).
Proof. destruct (sib_cases j) as [[Ej Es]|[Ej Es]]; rewrite Es, <- Ej; tauto. Qed.

Lemma parted_leaves_differ me sndr L : 1 <= L -> (forall k, k < L -> me / 2 ^ k <> sndr / 2 ^ k) -> me <> sndr.
Proof. intros L1 Ne E. apply (Ne 0); [lia|rewrite E; reflexivity]. Qed.

Lemma siblings_below_the_ancestor me sndr L :
  1 <= L -> me / 2 ^ L = sndr / 2 ^ L -> (forall k, k < L -> me / 2 ^ k <> sndr / 2 ^ k) ->
  me / 2 ^ (L - 1) = sib (sndr / 2 ^ (L - 1)).
Proof.
  intros L1 Eq Ne. set (a := me / 2 ^ (L - 1)). set (b := sndr / 2 ^ (L - 1)).
  assert (Hab : a <> b) by (apply Ne; lia).
  assert (Hh : a / 2 = b / 2) by (unfold a, b; rewrite !div_pow2_succ; replace (L - 1 + 1) with L by lia; exact Eq).
  pose proof (N.div_mod a 2 ltac:(lia)) as Da. pose proof (N.mod_upper_bound a 2 ltac:(lia)) as Ra. rewrite Hh in Da.
  (* a and b have the same half and differ: a is b with the last bit flipped *)
  destruct (sib_cases b) as [[Eb ->]|[Eb ->]]; revert Hab Da Ra Eb; generalize a, b, (a mod 2), (b / 2); clear; lia.
Qed.

Lemma path_spec_ancestors n : forall k j l, l / 2 ^ k = j ->
  Forall (fun c => ancestor (CopathNode_path c) l) (path_spec n k j).
Proof.
  induction n as [|n IH]; intros k j l E; cbn [path_spec]; constructor.
  - cbn [CopathNode_path]. apply ancestor_node_N. rewrite <- div_pow2_succ, E. reflexivity.
  - apply IH. rewrite <- div_pow2_succ, E. reflexivity.
Qed.

Lemma path_spec_complete n : forall k j l k', l / 2 ^ k = j -> k <= k' -> k' < k + N.of_nat n ->
  In (node (k' + 1) (l / 2 ^ (k' + 1))) (map CopathNode_path (path_spec n k j)).
Proof.
  induction n as [|n IH]; intros k j l k' E L1 L2; [lia|]. cbn [path_spec map CopathNode_path].
  assert (Ej : l / 2 ^ (k + 1) = j / 2) by (rewrite <- div_pow2_succ, E; reflexivity).
  destruct (N.eq_dec k' k) as [->|Ne].
  - left. rewrite Ej. reflexivity.
  - right. apply IH; [exact Ej|lia|lia].
Qed.

Lemma path_nodes_ancestors t leaf path : small t -> 2 * leaf <= tlen t -> path_nodes t leaf = Ok path ->
  Forall (fun p => ancestor p leaf) path.
Proof.
  intros S L E. destruct (path_nodes_spec t leaf S L) as (d & _ & _ & _ & P & _). rewrite P in E. inversion E; subst.
  apply Forall_map. apply path_spec_ancestors. rewrite N.pow_0_r, N.div_1_r. reflexivity.
Qed.

Lemma path_nodes_complete t leaf path p : small t -> 2 * leaf < tlen t -> path_nodes t leaf = Ok path ->
  ancestor p leaf -> p < tlen t -> In p path.
Proof.
  intros S L E (k & j & -> & Ej) Hp.
  destruct (path_nodes_spec t leaf S ltac:(lia)) as (d & Et & Hd & Hl & P & _). rewrite P in E. inversion E; subst path.
  destruct (total_leaf_count_pow t d S Et) as (_ & Hn & _).
  (* node (k+1) j < tlen t <= 2^(d+1) - 1, so k + 1 <= d *)
  assert (Hk : k + 1 <= d).
  { assert (Hlen : tlen t <= 2 * 2 ^ d - 1).
    { pose proof (N.div_mod (tlen t) 2 ltac:(lia)). pose proof (N.mod_upper_bound (tlen t) 2 ltac:(lia)). lia. }
    assert (In_tree : node (k + 1) j <= 2 ^ (d + 1) - 2) by (rewrite pow2_succ; lia).
    apply in_tree_iff in In_tree. lia. }
  rewrite <- Ej.
  apply (path_spec_complete (N.to_nat d) 0 leaf leaf k); [rewrite N.pow_0_r, N.div_1_r; reflexivity|lia|lia].
Qed.

Lemma blank_direct_path_none t l t' : blank_direct_path t l = TOk t' -> forall n, get t n = None -> get t' n = None.
Proof.
  intros D n G. apply blank_direct_path_ok in D. destruct D as (path & _ & ->).
  rewrite get_blank_nodes, G. destruct (existsb _ path); reflexivity.
Qed.

Lemma blank_direct_path_get t l t' : small t -> 2 * l <= tlen t -> blank_direct_path t l = TOk t' ->
  forall n, ~ ancestor n l -> get t' n = get t n.
Proof.
  intros S L D n Na. apply blank_direct_path_ok in D. destruct D as (path & P & ->).
  apply get_blank_nodes_notin. intro I. apply Na.
  exact (proj1 (Forall_forall _ _) (path_nodes_ancestors t l path S L P) n I).
Qed.

Lemma blank_direct_path_blanks t l t' : small t -> 2 * l < tlen t -> blank_direct_path t l = TOk t' ->
  forall p, ancestor p l -> get t' p = None.
Proof.
  intros S L D p A. apply blank_direct_path_ok in D. destruct D as (path & P & ->).
  destruct (N.lt_ge_cases p (tlen t)) as [Lp|Gp].
  - apply get_blank_nodes_in. eapply path_nodes_complete; eassumption.
  - apply get_beyond. rewrite blank_nodes_length. exact Gp.
Qed.

Theorem removed_leaf_blank t l t1 t2 :
  blank_leaf t l = TOk t1 -> blank_direct_path t1 l = TOk t2 -> get t2 (2 * l) = None.
Proof.
  intros B D. apply (blank_direct_path_none _ _ _ D). apply blank_leaf_ok in B. destruct B as [_ ->].
  rewrite get_set_none, N.eqb_refl. reflexivity.
Qed.

Lemma remove_none t l t1 t2 : blank_leaf t l = TOk t1 -> blank_direct_path t1 l = TOk t2 ->
  forall n, get t n = None -> get t2 n = None.
Proof.
  intros B D n G. apply (blank_direct_path_none _ _ _ D). apply blank_leaf_ok in B. destruct B as [_ ->].
  rewrite get_set_none, G. destruct (n =? 2 * l); reflexivity.
Qed.

Lemma remove_frame t l t1 t2 : small t -> blank_leaf t l = TOk t1 -> blank_direct_path t1 l = TOk t2 ->
  forall n, n <> 2 * l -> ~ ancestor n l -> get t2 n = get t n.
Proof.
  intros S B D n Nn Na. pose proof (blank_leaf_length _ _ _ B) as L1.
  apply blank_leaf_ok in B. destruct B as [[x G] E]. apply get_some_lt in G.
  rewrite (blank_direct_path_get t1 l t2 (small_length _ _ L1 S) ltac:(lia) D n Na), E. apply get_set_other. congruence.
Qed.

Lemma remove_blanks t l t1 t2 : small t -> blank_leaf t l = TOk t1 -> blank_direct_path t1 l = TOk t2 ->
  forall n, n = 2 * l \/ ancestor n l -> get t2 n = None.
Proof.
  intros S B D n [->|A]; [exact (removed_leaf_blank _ _ _ _ B D)|].
  pose proof (blank_leaf_length _ _ _ B) as L1. apply blank_leaf_ok in B. destruct B as [[x G] _]. apply get_some_lt in G.
  exact (blank_direct_path_blanks t1 l t2 (small_length _ _ L1 S) ltac:(lia) D n A).
Qed.

Lemma apply_removes_none rs : forall t t' n, apply_removes t rs = TOk t' -> get t n = None -> get t' n = None.
Proof.
  intros t t' n A G.
  exact (apply_removes_preserves (fun _ => True) (fun t0 => get t0 n = None)
           (fun t0 l t1 t2 G0 _ B D => remove_none t0 l t1 t2 B D n G0) rs t t' G I A).
Qed.

Lemma apply_removes_get rs : forall t t', small t -> apply_removes t rs = TOk t' ->
  forall n, (forall l, In l rs -> n <> 2 * l /\ ~ ancestor n l) -> get t' n = get t n.
Proof.
  induction rs as [|r rest IH]; intros t t' S A n Hn; [injection A as <-; reflexivity|].
  destruct (apply_removes_cons _ _ _ _ A) as (t1 & t2 & B & D & L & A').
  rewrite (IH t2 t' (small_length _ _ L S) A' n) by (intros l I; apply Hn; right; exact I).
  destruct (Hn r (or_introl eq_refl)) as [N1 N2]. exact (remove_frame t r t1 t2 S B D n N1 N2).
Qed.

Lemma apply_removes_blanked rs : forall t t', small t -> apply_removes t rs = TOk t' ->
  forall l n, In l rs -> n = 2 * l \/ ancestor n l -> get t' n = None.
Proof.
  induction rs as [|r rest IH]; intros t t' S A l n I H; [destruct I|].
  destruct (apply_removes_cons _ _ _ _ A) as (t1 & t2 & B & D & L & A').
  destruct I as [->|I].
  - apply (apply_removes_none _ _ _ _ A'). exact (remove_blanks t l t1 t2 S B D n H).
  - exact (IH t2 t' (small_length _ _ L S) A' l n I H).
Qed.

Lemma apply_updates_get us : forall t t', apply_updates t us = TOk t' ->
  forall n, (forall l, In l (map fst us) -> n <> 2 * l) -> get t' n = get t n.
Proof.
  induction us as [|[i id] rest IH]; intros t t' A n Hn; cbn [apply_updates] in A; [injection A as <-; reflexivity|].
  destruct (get t (2 * i)) as [[x|um]|]; try discriminate.
  rewrite (IH _ _ A n) by (intros l I; apply Hn; right; exact I).
  apply get_set_other. intro E. exact (Hn i (or_introl eq_refl) (eq_sym E)).
Qed.

Lemma blank_paths_none ls : forall t t' n, blank_paths t ls = TOk t' -> get t n = None -> get t' n = None.
Proof.
  induction ls as [|l rest IH]; intros t t' n A G; [injection A as <-; exact G|].
  destruct (blank_paths_cons _ _ _ _ A) as (t1 & D & _ & A').
  exact (IH t1 t' n A' (blank_direct_path_none _ _ _ D n G)).
Qed.

Lemma blank_paths_get ls : forall t t', small t -> (forall l, In l ls -> 2 * l <= tlen t) -> blank_paths t ls = TOk t' ->
  forall n, (forall l, In l ls -> ~ ancestor n l) -> get t' n = get t n.
Proof.
  induction ls as [|l rest IH]; intros t t' S Lb A n Hn; [injection A as <-; reflexivity|].
  destruct (blank_paths_cons _ _ _ _ A) as (t1 & D & L & A').
  transitivity (get t1 n).
  - apply (IH t1 t' (small_length _ _ L S)); [intros l0 I0; rewrite L; apply Lb; right; exact I0|exact A'|].
    intros l0 I0. apply Hn. right. exact I0.
  - exact (blank_direct_path_get t l t1 S (Lb l (or_introl eq_refl)) D n (Hn l (or_introl eq_refl))).
Qed.

Lemma blank_paths_blanks ls : forall t t', small t -> (forall l, In l ls -> 2 * l < tlen t) -> blank_paths t ls = TOk t' ->
  forall l p, In l ls -> ancestor p l -> get t' p = None.
Proof.
  induction ls as [|l0 rest IH]; intros t t' S Lb A l p I An; [destruct I|].
  destruct (blank_paths_cons _ _ _ _ A) as (t1 & D & L & A').
  destruct I as [->|I].
  - apply (blank_paths_none _ _ _ _ A'). exact (blank_direct_path_blanks t l t1 S (Lb l (or_introl eq_refl)) D p An).
  - refine (IH t1 t' (small_length _ _ L S) _ A' l p I An). intros l1 I1. rewrite L. apply Lb. right. exact I1.
Qed.

Lemma wf3_set_leaf t i id : wf3 t -> wf3 (set t (2 * i) (Some (Leaf id))).
Proof.
  intros W p um G l I. rewrite get_set in G.
  destruct (N.eqb_spec p (2 * i)) as [_|Np]; [destruct (_ <? _); discriminate|].
  destruct (W p um G l I) as [[x Hx] A]. split; [|exact A].
  destruct (N.eq_dec (2 * l) (2 * i)) as [E|Ne].
  - exists id. rewrite E. apply get_set_same. rewrite <- E. eapply get_some_lt. exact Hx.
  - exists x. rewrite get_set_other by congruence. exact Hx.
Qed.

Lemma wf3_get_eq t t' : (forall i, get t' i = get t i) -> wf3 t -> wf3 t'.
Proof.
  intros E W p um G l I. rewrite E in G. destruct (W p um G l I) as [[x Hx] A].
  split; [exists x; rewrite E; exact Hx|exact A].
Qed.

Lemma wf3_app_blank t k : wf3 t -> wf3 (t ++ repeat None k).
Proof. apply wf3_get_eq. intro i. apply get_app_blank. Qed.

Lemma wf3_insert_leaf t l id : wf3 t -> wf3 (insert_leaf t l (Leaf id)).
Proof. intro W. destruct (insert_leaf_set t l (Leaf id)) as (t0 & -> & E & _). apply wf3_set_leaf, (wf3_get_eq t); assumption. Qed.

Lemma wf3_update_unmerged path t leaf t' :
  wf3 t -> (exists id, get t (2 * leaf) = Some (Leaf id)) -> Forall (fun p => ancestor p leaf) path ->
  update_unmerged t leaf path = TOk t' -> wf3 t' /\ (exists id, get t' (2 * leaf) = Some (Leaf id)).
Proof.
  intros W [x L] F U. pose proof (update_unmerged_get _ _ _ _ U) as Sp.
  assert (Leaves : forall m y, get t (2 * m) = Some (Leaf y) -> get t' (2 * m) = Some (Leaf y)).
  { intros m y G. pose proof (proj2 (Sp (2 * m))) as B. rewrite G in B. exact B. }
  split; [|exists x; exact (Leaves _ _ L)].
  intros q uq Gq l I. pose proof (proj2 (Sp q)) as B.
  destruct (get t q) as [[y|um]|] eqn:G; [congruence| |congruence].
  destruct B as (um' & G' & M). assert (um' = uq) by congruence. subst um'. apply M in I. destruct I as [I|[-> Ip]].
  - destruct (W q um G l I) as [[y Hy] A]. split; [exists y; exact (Leaves _ _ Hy)|exact A].
  - split; [exists x; exact (Leaves _ _ L)|exact (proj1 (Forall_forall _ _) F q Ip)].
Qed.

(* blanking a set of nodes keeps wf3 when every parent above a blanked leaf is blanked with it *)
Lemma wf3_blanked (B : N -> Prop) t t' :
  (forall n, B n -> get t' n = None) -> (forall n, ~ B n -> get t' n = get t n) ->
  (forall m p, B (2 * m) -> ancestor p m -> B p) -> wf3 t -> wf3 t'.
Proof.
  intros Bl Fr Up W q uq Gq m I.
  assert (Nq : ~ B q) by (intro Bq; rewrite (Bl q Bq) in Gq; discriminate).
  rewrite (Fr q Nq) in Gq. destruct (W q uq Gq m I) as [[x Hx] A]. split; [|exact A].
  exists x. rewrite Fr; [exact Hx|]. intro Bm. exact (Nq (Up m q Bm A)).
Qed.

Lemma wf3_trim t : wf3 t -> wf3 (trim t).
Proof. apply wf3_get_eq. intro i. apply get_trim. Qed.

Theorem wf3_add_leaf t id start t' idx :
  wf3 t -> tlen t + 2 < 2 ^ 25 -> add_leaf t id start = TOk (t', idx) -> wf3 t'.
Proof.
  intros W S A. apply add_leaf_ok in A. destruct A as (-> & L1 & path & P & U).
  set (i := next_empty_leaf t start) in *. set (t1 := insert_leaf t i (Leaf id)) in *.
  pose proof (insert_leaf_length t i (Leaf id)) as Ln. fold t1 in Ln.
  assert (S1 : small t1) by (unfold small; lia).
  refine (proj1 (wf3_update_unmerged path t1 i t' _ (ex_intro _ id (insert_leaf_at t i (Leaf id) L1)) _ U)).
  - apply wf3_insert_leaf. exact W.
  - exact (path_nodes_ancestors t1 i path S1 ltac:(lia) P).
Qed.

Theorem wf3_remove t l t1 t2 :
  wf3 t -> small t -> blank_leaf t l = TOk t1 -> blank_direct_path t1 l = TOk t2 -> wf3 t2.
Proof.
  intros W S B D.
  apply (wf3_blanked (fun n => n = 2 * l \/ ancestor n l) t t2); [exact (remove_blanks t l t1 t2 S B D)| |apply above_removed|exact W].
  intros n Nn. apply (remove_frame t l t1 t2 S B D); tauto.
Qed.

Lemma wf3_blank_direct_path t l t' : wf3 t -> small t -> 2 * l < tlen t -> blank_direct_path t l = TOk t' -> wf3 t'.
Proof.
  intros W S L D.
  apply (wf3_blanked (fun n => ancestor n l) t t'); [exact (blank_direct_path_blanks t l t' S L D)| | |exact W].
  - exact (blank_direct_path_get t l t' S ltac:(lia) D).
  - intros m p A _. destruct (ancestor_not_leaf _ _ m A eq_refl).
Qed.

Theorem wf3_batch_edit t removes updates adds t' added :
  wf3 t -> tlen t + 2 * N.of_nat (length adds) < 2 ^ 25 ->
  batch_edit t removes updates adds = TOk (t', added) -> wf3 t' /\ tlen t' <= tlen t + 2 * N.of_nat (length adds).
Proof.
  exact (batch_edit_preserves wf3 wf3_remove (fun t0 i _ id W _ => wf3_set_leaf t0 i id W) wf3_blank_direct_path
           (fun t0 id start t1 idx W S _ => wf3_add_leaf t0 id start t1 idx W S) wf3_trim _ _ _ _ _ _).
Qed.

Lemma wf3_set_par_empty t p : wf3 t -> N.even p = false -> wf3 (set t p (Some (Par []))).
Proof.
  intros W Op q uq Gq m I. rewrite get_set in Gq. destruct (N.eqb_spec q p) as [_|Nq].
  - destruct (_ <? _); [|discriminate]. assert (uq = []) by congruence. subst. destruct I.
  - destruct (W q uq Gq m I) as [[x Hx] A]. split; [|exact A].
    exists x. rewrite get_set_other; [exact Hx|]. intro E. subst p. rewrite N.even_mul in Op. discriminate.
Qed.

Theorem wf3_apply_update_path t sender id t' :
  wf3 t -> small t -> apply_update_path t sender id = TOk t' -> wf3 t'.
Proof.
  intros W S A. apply apply_update_path_ok in A. destruct A as ([x G] & path & copath & P & _ & A).
  eapply (apply_path_nodes_preserves wf3); [|apply wf3_set_leaf; exact W| |exact A].
  { intros t0 n p W0 O. apply wf3_set_par_empty; [apply wf3_app_blank; exact W0|exact O]. }
  apply get_some_lt in G. eapply path_nodes_odd; [| |exact P]; [apply small_set; exact S|rewrite set_length; lia].
Qed.

Theorem wf3_apply_commit t removes updates adds path t' added :
  wf3 t -> tlen t + 2 * N.of_nat (length adds) < 2 ^ 25 ->
  apply_commit t removes updates adds path = TOk (t', added) -> wf3 t'.
Proof.
  intros W S A. apply apply_commit_ok in A. destruct A as (t1 & B & A).
  destruct (wf3_batch_edit _ _ _ _ _ _ W S B) as [W1 L1].
  destruct path as [[sender id]|]; [|subst; exact W1].
  eapply wf3_apply_update_path; [exact W1| |exact A]. unfold small. lia.
Qed.

Lemma wf3_single id : wf3 [Some (Leaf id)].
Proof.
  intros p um G. destruct (get_single _ _ _ G) as [_ H]. discriminate.
Qed.

Lemma resolution_sound fuel : forall t stack r,
  wf3 t -> resolution fuel t stack = Ok r -> forall x, In x r -> get t x <> None.
Proof.
  induction fuel as [|f IH]; intros t stack r W; cbn [resolution]; [discriminate|].
  destruct stack as [|y rest]; [intro E; inversion E; subst; intros x []|].
  destruct (get t y) as [[id|um]|] eqn:G.
  - intro E. apply bind_ok in E. destruct E as (r0 & R & E). injection E as <-.
    intros x [<-|I]; [congruence|eapply IH; eassumption].
  - intro E. apply bind_ok in E. destruct E as (r0 & R & E). injection E as <-.
    intros x [<-|I]; [congruence|].
    apply in_app_iff in I. destruct I as [I|I]; [|eapply IH; eassumption].
    apply in_map_iff in I. destruct I as (l & <- & Il). destruct (W y um G l Il) as [[z Hz] _]. change (get t (2 * l) <> None). congruence.
  - destruct (N.even y); [apply IH; exact W|].
    destruct (left_unchecked y) as [l| |]; cbn [bind]; try discriminate.
    destruct (right_unchecked y) as [rr| |]; cbn [bind]; try discriminate. apply IH. exact W.
Qed.

Theorem resolution_nonblank t c r : wf3 t -> resolution_of t c = Ok r -> forall x, In x r -> get t x <> None.
Proof. intros W E. eapply resolution_sound; eassumption. Qed.

(* executable approximation of wf3 (ancestors up to level 40 only, no lemma ties it to wf3) for the examples and the
   correspondence run *)
Definition anc_b (p l : N) : bool :=     (* p is an ancestor of leaf l: p = node (k+1) (l / 2^(k+1)) for k < 40 *)
  existsb (fun k => p =? (2 * (l / 2 ^ (k + 1)) + 1) * 2 ^ (k + 1) - 1) (map N.of_nat (seq 0 40)).
Definition wf3_check (t : tree) : bool :=
  forallb (fun p => match get t p with
                    | Some (Par um) => forallb (fun l => match get t (2 * l) with Some (Leaf _) => anc_b p l | _ => false end) um
                    | _ => true end) (map N.of_nat (seq 0 (length t))).
