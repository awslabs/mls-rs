(* One commit, end to end, for a member that stays in the group: the tree invariants, the soundness
   (PrivOK) and the completeness (Complete) of its private state are carried from the old epoch to
   the new one, and it derives the committer's commit secret.  This composes the separate models
   (tree operations, private-key bookkeeping, decap selection, path-secret chains) into one
   statement about one commit; by induction it holds after every history of commits. *)
From Coq Require Import NArith Arith List Lia.
From MlsV Require Import Res Tree TreeProofs TreeWF Kem KemProofs Priv PrivProofs Decap DecapProofs TreeWF5 PrivComplete KemSecrets KemSecretsProofs Agreement.
Import ListNotations.
Local Open Scope N_scope.

(* the invariants of the tree alone *)
Definition TreeOK (t : tree) : Prop := wf3 t /\ wf5 t /\ shape_ok t.

Lemma tree_ok_single id : TreeOK [Some (Leaf id)].
Proof. exact (conj (wf3_single id) (conj (wf5_single id) (shape_single id))). Qed.

Lemma tree_ok_batch_edit t removes updates adds t1 added :
  TreeOK t -> tlen t + 2 * N.of_nat (length adds) < 2 ^ 25 ->
  batch_edit t removes updates adds = TOk (t1, added) -> TreeOK t1 /\ small t1.
Proof.
  intros (W3 & W5 & Sh) S B. destruct (wf3_batch_edit _ _ _ _ _ _ W3 S B) as [W31 L1].
  destruct (wf5_batch_edit _ _ _ _ _ _ W5 Sh S B) as [[Sh1 W51] _].
  split; [exact (conj W31 (conj W51 Sh1))|unfold small; lia].
Qed.

Lemma tree_ok_update_path t1 sndr id t2 : TreeOK t1 -> small t1 -> apply_update_path t1 sndr id = TOk t2 -> TreeOK t2.
Proof.
  intros (W3 & W5 & Sh) Sm A. destruct (apply_update_path_ok _ _ _ _ A) as [[x G] _]. apply get_some_lt in G.
  split; [eapply wf3_apply_update_path; eassumption|]. split; [eapply wf5_apply_update_path; eassumption|].
  eapply shape_apply_update_path; [exact Sh|exact Sm| |exact A]. lia.
Qed.

Definition MemberOK (t : tree) (ks : keys) (m : N * priv) : Prop :=
  (exists id, get t (2 * fst m) = Some (Leaf id)) /\
  PrivOK ks (fst m) (snd m) /\ Complete t (fst m) (snd m) /\
  (exists lk, nth_error (snd m) 0 = Some (Some lk)).

(* [own] is the key of the member's own Update proposal if the commit has one: then every key but that one is
   dropped, and its direct path is blank *)
Theorem member_after_proposals ks t removes updates adds t1 added newleaf me pr own pr1 :
  TreeOK t -> tlen t + 2 * N.of_nat (length adds) < 2 ^ 25 ->
  batch_edit t removes updates adds = TOk (t1, added) ->
  MemberOK t ks (me, pr) -> get t1 (2 * me) <> None -> newleaf me = own ->
  match own with None => True | Some _ => In me (map fst updates) end ->
  provisional_priv t1 me pr own = Ok pr1 ->
  MemberOK t1 (keys_after_proposals ks t1 newleaf) (me, pr1).
Proof.
  intros T S B (_ & P & C & lk & K) Nb En Up Pv. cbn [fst snd] in *.
  destruct (tree_ok_batch_edit _ _ _ _ _ _ T S B) as [(_ & _ & Sh1) Sm1].
  destruct (leaf_of_shape t1 me Sh1 Nb) as [id G]. pose proof (get_some_lt _ _ _ G) as Lm.
  split; [exists id; exact G|]. split; [eapply privok_provisional; eassumption|]. cbn [fst snd]. destruct own as [key|].
  - split; [eapply complete_own_update; eassumption|]. exists key. exact (provisional_leaf_key _ _ _ _ _ Pv).
  - split; [|exists lk; rewrite (provisional_leaf_key _ _ _ _ _ Pv), K; reflexivity].
    eapply complete_provisional; [exact C|eapply ParMono_batch_edit; exact B|exact Sm1|exact Lm|exact Pv].
Qed.

Theorem receiver_step ks1 t1 sndr id t2 flt fk leafkey me pr1 L path_me :
  TreeOK t1 -> small t1 -> apply_update_path t1 sndr id = TOk t2 ->
  filtered (set t1 (2 * sndr) (Some (Leaf id))) sndr = Ok flt ->
  MemberOK t1 ks1 (me, pr1) ->
  1 <= L -> me / 2 ^ L = sndr / 2 ^ L -> (forall k, k < L -> me / 2 ^ k <> sndr / 2 ^ k) ->
  path_nodes (set t1 (2 * sndr) (Some (Leaf id))) me = Ok path_me ->
  MemberOK t2 (keys_after_path ks1 sndr leafkey flt fk)
           (me, decap_priv pr1 (length path_me) (N.to_nat (L - 1)) (upd_nodes flt 1 fk)).
Proof.
  intros (_ & W5 & Sh) Sm A F ((idm & G) & P & C & lk & K) L1 Eq Ne Pm. cbn [fst snd] in *.
  split; [|split; [apply privok_decap; assumption|split]]; cbn [fst snd].
  - exists idm. rewrite (apply_update_path_leaves _ _ _ _ me Sm A), get_set_other; [exact G|]. pose proof (parted_leaves_differ _ _ _ L1 Ne). lia.
  - eapply complete_decap; try eassumption. eapply get_some_lt; exact G.
  - exists lk. apply decap_keeps_leaf_key. exact K.
Qed.

(* the committer: nothing is asked of its earlier private state *)
Theorem committer_step ks1 t1 sndr id t2 flt fk leafkey pr :
  TreeOK t1 -> small t1 -> apply_update_path t1 sndr id = TOk t2 ->
  filtered (set t1 (2 * sndr) (Some (Leaf id))) sndr = Ok flt ->
  MemberOK t2 (keys_after_path ks1 sndr leafkey flt fk) (sndr, encap_priv pr (length flt) flt fk leafkey).
Proof.
  intros (_ & W5 & Sh) Sm A F. split; [exists id; exact (apply_update_path_sender_leaf _ _ _ _ Sm A)|]. cbn [fst snd].
  split; [apply privok_encap; reflexivity|]. split; [eapply complete_encap; eassumption|].
  exists leafkey. unfold encap_priv. rewrite nth_error_mapi_resize_0 by lia. reflexivity.
Qed.

(* a member added by the commit *)
Theorem joiner_step ks2 t removes updates adds t1 added sndr id t2 me leafkey jflt L pr :
  tlen t + 2 * N.of_nat (length adds) < 2 ^ 25 -> small t1 ->
  batch_edit t removes updates adds = TOk (t1, added) -> In me added ->
  apply_update_path t1 sndr id = TOk t2 -> TreeOK t2 -> small t2 ->
  get t2 (2 * me) <> None -> ks2 (2 * me) = Some leafkey ->
  1 <= L -> (forall k, k < L -> me / 2 ^ k <> sndr / 2 ^ k) ->
  filtered t2 me = Ok jflt ->
  join_priv ks2 me leafkey jflt (N.to_nat (L - 1)) = Some pr ->
  MemberOK t2 ks2 (me, pr).
Proof.
  intros S Sm1 B I A (_ & W52 & Sh2) Sm2 Nb K L1 Ne F J.
  split; [apply leaf_of_shape; assumption|]. cbn [fst snd].
  split; [eapply privok_join; eassumption|].
  split; [exact (complete_join t removes updates adds t1 added me sndr id t2 L jflt ks2 leafkey pr S Sm1 B I A Sh2 W52 Sm2 Nb L1 Ne F J)|].
  exists leafkey. eapply join_priv_leaf_key. exact J.
Qed.

Lemma member_with_leaf_key_only t ks me lk :
  (exists id, get t (2 * me) = Some (Leaf id)) -> ks (2 * me) = Some lk -> Complete t me [Some lk] ->
  MemberOK t ks (me, [Some lk]).
Proof.
  intros G K C. split; [exact G|]. split; [|split; [exact C|exists lk; reflexivity]].
  intros k x H. destruct k as [|[|k]]; cbn [nth_error fst snd] in H; try discriminate.
  injection H as <-. cbn [N.of_nat fst]. rewrite lvl_node_0. exact K.
Qed.

(* the two leaves part at level L, so one level below they are siblings: the copath node of the committer at that
   level has the member's leaf below it, and is not filtered *)
Lemma level_below_the_ancestor_unfiltered t1 sndr id me flt L :
  shape_ok t1 -> small t1 -> 2 * sndr < tlen t1 -> get t1 (2 * me) <> None ->
  1 <= L -> me / 2 ^ L = sndr / 2 ^ L -> (forall k, k < L -> me / 2 ^ k <> sndr / 2 ^ k) ->
  filtered (set t1 (2 * sndr) (Some (Leaf id))) sndr = Ok flt -> (N.to_nat (L - 1) < length flt)%nat ->
  nth (N.to_nat (L - 1)) flt true = false.
Proof.
  intros Sh Sm Ls Nb L1 Eq Ne F Lk.
  apply (receiver_level_unfiltered (set t1 (2 * sndr) (Some (Leaf id))) sndr me _ flt); try assumption.
  - apply shape_set_leaf. exact Sh.
  - apply small_set. exact Sm.
  - rewrite set_length. exact Ls.
  - rewrite get_set_other; [exact Nb|]. pose proof (parted_leaves_differ _ _ _ L1 Ne). lia.
  - rewrite N2Nat.id. apply siblings_below_the_ancestor; assumption.
Qed.

Record gstate := { g_tree : tree; g_keys : keys; g_members : list (N * priv) }.

Definition GInv (g : gstate) : Prop :=
  TreeOK (g_tree g) /\ Forall (MemberOK (g_tree g) (g_keys g)) (g_members g).

(* how the private state of one member of the new epoch came about *)
Definition evolves (g : gstate) (updates : list (N * N)) (t1 : tree) (added : list N) (sndr id : N) (flt : list bool)
           (fk : N -> N) (leafkey : N) (newleaf : N -> option N) (t2 : tree) (ks2 : keys) (m' : N * priv) : Prop :=
  let me := fst m' in
  let t1' := set t1 (2 * sndr) (Some (Leaf id)) in
  (* a receiver that was a member before *)
  (exists pr pr1 own L path_me,
     In (me, pr) (g_members g) /\ 2 * me < tlen t1 /\ get t1 (2 * me) <> None /\ newleaf me = own /\
     (match own with None => True | Some _ => In me (map fst updates) end) /\
     provisional_priv t1 me pr own = Ok pr1 /\
     1 <= L /\ me / 2 ^ L = sndr / 2 ^ L /\ (forall k, k < L -> me / 2 ^ k <> sndr / 2 ^ k) /\
     path_nodes t1' me = Ok path_me /\
     snd m' = decap_priv pr1 (length path_me) (N.to_nat (L - 1)) (upd_nodes flt 1 fk))
  \/ (* the committer *)
  (me = sndr /\ exists pr, snd m' = encap_priv pr (length flt) flt fk leafkey)
  \/ (* a member added by this commit *)
  (exists lk L jflt,
     In me added /\ get t2 (2 * me) <> None /\ ks2 (2 * me) = Some lk /\
     1 <= L /\ (forall k, k < L -> me / 2 ^ k <> sndr / 2 ^ k) /\
     filtered t2 me = Ok jflt /\ join_priv ks2 me lk jflt (N.to_nat (L - 1)) = Some (snd m')).

Inductive gstep (g g' : gstate) : Prop :=
| GCommit removes updates adds t1 added sndr id flt fk leafkey newleaf :
    tlen (g_tree g) + 2 * N.of_nat (length adds) < 2 ^ 25 ->
    batch_edit (g_tree g) removes updates adds = TOk (t1, added) ->
    apply_update_path t1 sndr id = TOk (g_tree g') -> small (g_tree g') ->
    filtered (set t1 (2 * sndr) (Some (Leaf id))) sndr = Ok flt ->
    g_keys g' = keys_after_path (keys_after_proposals (g_keys g) t1 newleaf) sndr leafkey flt fk ->
    Forall (evolves g updates t1 added sndr id flt fk leafkey newleaf (g_tree g') (g_keys g')) (g_members g') ->
    gstep g g'.

Theorem ginv_step g g' : GInv g -> gstep g g' -> GInv g'.
Proof.
  intros [T M] [removes updates adds t1 added sndr id flt fk leafkey newleaf Sz B A Sm2 F Ek Ev].
  destruct (tree_ok_batch_edit _ _ _ _ _ _ T Sz B) as [T1 Sm1]. pose proof (tree_ok_update_path _ _ _ _ T1 Sm1 A) as T2.
  split; [exact T2|]. rewrite Forall_forall in *. intros [me pr'] Im. specialize (Ev _ Im). unfold evolves in Ev. cbn [fst snd] in Ev.
  destruct Ev as [(pr & pr1 & own & L & path_me & Iold & _ & Nb & En & Up & Pv & L1 & Eq & Ne & Pm & ->)|[(-> & pr & ->)|(lk & L & jflt & Ia & Nb & K & L1 & Ne & Fj & J)]].
  - rewrite Ek. refine (receiver_step _ t1 sndr id _ flt fk leafkey me pr1 L path_me T1 Sm1 A F _ L1 Eq Ne Pm).
    exact (member_after_proposals _ _ removes updates adds t1 added newleaf me pr own pr1 T Sz B (M _ Iold) Nb En Up Pv).
  - rewrite Ek. exact (committer_step _ t1 sndr id _ flt fk leafkey pr T1 Sm1 A F).
  - exact (joiner_step _ _ removes updates adds t1 added sndr id _ me lk jflt L pr' Sz Sm1 B Ia A T2 Sm2 Nb K L1 Ne Fj J).
Qed.

Inductive reachable (g0 : gstate) : gstate -> Prop :=
| reach_refl : reachable g0 g0
| reach_step g g' : reachable g0 g -> gstep g g' -> reachable g0 g'.

Theorem ginv_reachable g0 g : GInv g0 -> reachable g0 g -> GInv g.
Proof. intros I R. induction R as [|g g' R IH St]; [exact I|]. eapply ginv_step; [exact IH|exact St]. Qed.

(* the group a member creates: one leaf, its key *)
Theorem ginv_initial id lk : GInv {| g_tree := [Some (Leaf id)]; g_keys := (fun i => if i =? 0 then Some lk else None); g_members := [(0, [Some lk])] |}.
Proof.
  split; [apply tree_ok_single|]. constructor; [|constructor].
  apply member_with_leaf_key_only; [exists id; reflexivity|reflexivity|apply complete_single].
Qed.

Section GroupAgreement.
  Variable sec : Type.
  Variable derive : sec -> sec.

  (* In a state that satisfies the invariant, take any commit with a path.  Every member that stays
     (and has no update of its own in the commit) finds a ciphertext in the committer's update path,
     sealed to a key it holds, opens the committer's path secret of its level and from there
     derives the committer's commit secret. *)
  Theorem every_receiver_derives_the_commit_secret g removes updates adds t1 added sndr id flt newleaf me pr pr1 L r idm :
    GInv g -> In (me, pr) (g_members g) ->
    tlen (g_tree g) + 2 * N.of_nat (length adds) < 2 ^ 25 ->
    batch_edit (g_tree g) removes updates adds = TOk (t1, added) ->
    let t1' := set t1 (2 * sndr) (Some (Leaf id)) in
    2 * sndr < tlen t1 -> filtered t1' sndr = Ok flt ->
    2 * me < tlen t1 -> get t1 (2 * me) = Some (Leaf idm) -> ~ In me added -> newleaf me = None ->
    provisional_priv t1 me pr None = Ok pr1 ->
    1 <= L -> me / 2 ^ L = sndr / 2 ^ L -> (forall k, k < L -> me / 2 ^ k <> sndr / 2 ^ k) ->
    (N.to_nat (L - 1) < length flt)%nat ->
    let k := N.to_nat (L - 1) in
    let ks1 := keys_after_proposals (g_keys g) t1 newleaf in
    exists s i key recips ct,
      secret_at sec (fst (committer_chain sec derive flt r)) k = Some s /\
      decap_select t1' me pr1 k added = Ok (Some (i, key)) /\
      sealed_to t1' (lvl_node (N.of_nat k) me) added = Ok recips /\
      nth_error (seal_to sec ks1 recips s) i = Some ct /\
      open_with sec key ct = Some s /\
      receiver_chain sec derive (skipn k flt) s =
        (skipn k (fst (committer_chain sec derive flt r)), snd (committer_chain sec derive flt r)).
  Proof.
    intros [T M] Im Sz B. cbv zeta. intros Ls F _ Gl Nx En Pv L1 Eq Ne Lk. rewrite Forall_forall in M.
    destruct (tree_ok_batch_edit _ _ _ _ _ _ T Sz B) as [(_ & _ & Sh1) Sm1].
    assert (Nb : get t1 (2 * me) <> None) by congruence.
    destruct (member_after_proposals _ _ removes updates adds t1 added newleaf me pr None pr1 T Sz B (M _ Im) Nb En I Pv) as (_ & P1 & C1 & lk & K1).
    cbn [fst snd] in P1, C1, K1.
    (* the receiver's level is not filtered, so the committer has a path secret there *)
    pose proof (level_below_the_ancestor_unfiltered t1 sndr id me flt L Sh1 Sm1 Ls Nb L1 Eq Ne F Lk) as Unf.
    destruct (proj1 (committer_chain_shape sec derive flt r (N.to_nat (L - 1)) Lk) Unf) as [s Hs].
    set (t1' := set t1 (2 * sndr) (Some (Leaf id))).
    set (k := N.to_nat (L - 1)).
    assert (Sh' : shape_ok t1') by (apply shape_set_leaf; exact Sh1).
    pose proof (small_set t1 (2 * sndr) (Some (Leaf id)) Sm1 : small t1') as Sm'.
    assert (Gl' : get t1' (2 * me) = Some (Leaf idm)).
    { unfold t1'. rewrite get_set_other; [exact Gl|]. pose proof (parted_leaves_differ _ _ _ L1 Ne). clear - H. lia. }
    destruct (filtered_flags t1' sndr flt Sm' ltac:(unfold t1'; rewrite set_length; exact (N.lt_le_incl _ _ Ls)) F) as (d & Et & Lf & _).
    assert (Rs := resolution_of_level t1' d k (me / 2 ^ N.of_nat k) Sm' Et ltac:(rewrite <- Lf; exact Lk)).
    destruct (complete_decap_finds_ciphertext_res t1' me pr1 k added idm lk Sh' (complete_set_leaf _ _ _ _ _ C1) Rs Gl' Nx K1) as (i & key & D).
    destruct (receiver_derives_the_commit_secret sec derive _ t1' me pr1 k added flt r i key s P1 D Unf Hs) as (recips & ct & S1).
    exists s, i, key, recips, ct. split; [exact Hs|split; [exact D|exact S1]].
  Qed.
End GroupAgreement.

(* commits WITHOUT an update path (add-only, PSK-only ...): the proposals alone *)
Definition evolves_nopath (g : gstate) (updates : list (N * N)) (t1 : tree) (added : list N)
           (newleaf : N -> option N) (ks1 : keys) (m' : N * priv) : Prop :=
  let me := fst m' in
  (exists pr own,
     In (me, pr) (g_members g) /\ 2 * me < tlen t1 /\ get t1 (2 * me) <> None /\ newleaf me = own /\
     (match own with None => True | Some _ => In me (map fst updates) end) /\
     provisional_priv t1 me pr own = Ok (snd m'))
  \/
  (exists lk, In me added /\ get t1 (2 * me) <> None /\ ks1 (2 * me) = Some lk /\ snd m' = [Some lk]).

Inductive gstep_nopath (g g' : gstate) : Prop :=
| GCommitNoPath removes updates adds added newleaf :
    tlen (g_tree g) + 2 * N.of_nat (length adds) < 2 ^ 25 ->
    batch_edit (g_tree g) removes updates adds = TOk (g_tree g', added) ->
    g_keys g' = keys_after_proposals (g_keys g) (g_tree g') newleaf ->
    Forall (evolves_nopath g updates (g_tree g') added newleaf (g_keys g')) (g_members g') ->
    gstep_nopath g g'.

Theorem ginv_step_nopath g g' : GInv g -> gstep_nopath g g' -> GInv g'.
Proof.
  intros [T M] [removes updates adds added newleaf Sz B Ek Ev].
  destruct (tree_ok_batch_edit _ _ _ _ _ _ T Sz B) as [T1 Sm1].
  split; [exact T1|]. rewrite Forall_forall in *. intros [me pr'] Im. specialize (Ev _ Im). unfold evolves_nopath in Ev. cbn [fst snd] in Ev.
  destruct Ev as [(pr & own & Iold & _ & Nb & En & Up & Pv)|(lk & Ia & Nb & K & ->)].
  - rewrite Ek. exact (member_after_proposals _ _ removes updates adds _ added newleaf me pr own pr' T Sz B (M _ Iold) Nb En Up Pv).
  - apply member_with_leaf_key_only; [apply leaf_of_shape; [apply T1|exact Nb]|exact K|].
    apply complete_of_unmerged. eapply added_member_unmerged; eassumption.
Qed.

Inductive reachable2 (g0 : gstate) : gstate -> Prop :=
| reach2_refl : reachable2 g0 g0
| reach2_path g g' : reachable2 g0 g -> gstep g g' -> reachable2 g0 g'
| reach2_nopath g g' : reachable2 g0 g -> gstep_nopath g g' -> reachable2 g0 g'.

Theorem ginv_reachable2 g0 g : GInv g0 -> reachable2 g0 g -> GInv g.
Proof.
  intros I R. induction R as [|g g' R IH St|g g' R IH St]; [exact I| |].
  - eapply ginv_step; [exact IH|exact St].
  - eapply ginv_step_nopath; [exact IH|exact St].
Qed.

Section JoinerAgreement.
  Variable sec : Type.
  Variable derive : sec -> sec.

  (* the committer hands the joiner the path secret at position joiner_secret_position(L) = L - 1 of its
     list (Model/Join.v, translated by rs2v welcome); that position is never filtered - the joiner's own
     leaf is in the copath subtree - and following the chain from there ends in the commit secret *)
  Theorem every_joiner_derives_the_commit_secret t1 sndr id me flt L r :
    shape_ok t1 -> small t1 -> 2 * sndr < tlen t1 -> me <> sndr -> get t1 (2 * me) <> None ->
    1 <= L -> me / 2 ^ L = sndr / 2 ^ L -> (forall k, k < L -> me / 2 ^ k <> sndr / 2 ^ k) ->
    let t1' := set t1 (2 * sndr) (Some (Leaf id)) in
    let k := N.to_nat (L - 1) in
    filtered t1' sndr = Ok flt -> (k < length flt)%nat ->
    exists s,
      secret_at sec (fst (committer_chain sec derive flt r)) k = Some s /\
      receiver_chain sec derive (skipn k flt) s =
        (skipn k (fst (committer_chain sec derive flt r)), snd (committer_chain sec derive flt r)).
  Proof.
    intros Sh Sm Ls _ Nb L1 Eq Ne. cbv zeta. intros F Lk.
    pose proof (level_below_the_ancestor_unfiltered t1 sndr id me flt L Sh Sm Ls Nb L1 Eq Ne F Lk) as Unf.
    destruct (proj1 (committer_chain_shape sec derive flt r (N.to_nat (L - 1)) Lk) Unf) as [s Hs].
    exists s. split; [exact Hs|]. apply receiver_reaches_commit_secret; assumption.
  Qed.
End JoinerAgreement.

Theorem removed_member_holds_no_key_of_a_recipient_node t removes updates adds t1 added l sndr id rs :
  shape_ok t -> tlen t + 2 * N.of_nat (length adds) < 2 ^ 25 ->
  batch_edit t removes updates adds = TOk (t1, added) -> In l removes ->
  let t1' := set t1 (2 * sndr) (Some (Leaf id)) in
  wf3 t1' -> encap_recipients t1' sndr added = Ok rs ->
  forall p xs x, In (p, xs) rs -> In x xs ->
    (forall k, (1 <= k)%nat -> x <> lvl_node (N.of_nat k) l) /\ (get t1' (2 * l) = None \/ In l added -> x <> 2 * l).
Proof.
  intros Sh Sz B Il. cbv zeta. intros W E p xs x I1 I2.
  destruct (seal_recipients_ok _ _ _ _ W E p xs x I1 I2) as (Nb & Nx & _).
  destruct (shape_batch_edit _ _ _ _ _ _ Sh B) as [Sh1 _].
  split.
  - intros k Hk Ex. subst x.
    (* the node is not a parent in t1 (blanked by the removal, never re-created) and cannot be a leaf *)
    assert (NP : forall um, get t1 (lvl_node (N.of_nat k) l) <> Some (Par um)).
    { apply batch_edit_ok in B. destruct B as (ta & tb & tc & td & R1 & U & Bp & Ad & -> & _).
      apply (not_par_mono td _ _ (ParMono_trim td)).
      apply (not_par_mono tc _ _ (ParMono_apply_adds _ _ _ _ _ _ Ad)).
      apply (not_par_mono tb _ _ (ParMono_blank_paths _ _ _ Bp)).
      apply (not_par_mono ta _ _ (ParMono_apply_updates _ _ _ U)).
      intros um G. rewrite (apply_removes_blanked (rev removes) t ta ltac:(unfold small; lia) R1 l _ (proj1 (in_rev _ _) Il) (or_intror (lvl_node_ancestor k l Hk))) in G.
      discriminate. }
    apply Nb. rewrite get_set_other by (intro Q; exact (ancestor_not_leaf _ _ sndr (lvl_node_ancestor k l Hk) (eq_sym Q))).
    destruct (get t1 (lvl_node (N.of_nat k) l)) as [[y|um]|] eqn:G1; [exfalso|exfalso; exact (NP um eq_refl)|reflexivity].
    exact (shape_parent_slot _ _ _ Sh1 (lvl_node_odd (N.of_nat k) l ltac:(lia)) G1).
  - intros [G|Ia] Ex; subst x; [exact (Nb G)|exact (Nx l Ia eq_refl)].
Qed.
