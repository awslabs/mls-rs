(* Every HPKE recipient of a path secret is a NON-BLANK node of the new tree lying in the
   resolution of the copath node, and is not a leaf added by the same commit.  A removed
   leaf is blank in the new tree, hence never a recipient. *)
From Coq Require Import NArith List Bool.
From MlsV Require Import Res Tree TreeProofs TreeWF Kem.
Import ListNotations.
Local Open Scope N_scope.

Lemma recipients_of_sound t excl : forall path copath rs,
  wf3 t -> recipients_of t path copath excl = Ok rs ->
  forall p xs x, In (p, xs) rs -> In x xs ->
    get t x <> None /\ (forall l, In l excl -> x <> 2 * l)
    /\ exists c r, In c copath /\ resolution_of t c = Ok r /\ In x r.
Proof.
  induction path as [|p0 pr IH]; intros copath rs W; destruct copath as [|c cr]; cbn [recipients_of];
    try (intro E; inversion E; subst; intros ? ? ? []).
  intro E. apply bind_ok in E. destruct E as (r & R & E). apply bind_ok in E. destruct E as (rest & Rs & E).
  assert (Tail : forall p xs x, In (p, xs) rest -> In x xs ->
            get t x <> None /\ (forall l, In l excl -> x <> 2 * l) /\ exists c0 r0, In c0 (c :: cr) /\ resolution_of t c0 = Ok r0 /\ In x r0).
  { intros p xs x I1 I2. destruct (IH cr rest W Rs p xs x I1 I2) as (A & B & c0 & r0 & Ic & Er & Ix).
    split; [exact A|]. split; [exact B|]. exists c0, r0. split; [right; exact Ic|]. split; assumption. }
  destruct r as [|r0 rr]; apply Ok_inj in E; subst rs; [exact Tail|].
  intros p xs x [I1|I1] I2; [|eapply Tail; eassumption].
  assert (p = p0 /\ xs = filter (not_excluded excl) (r0 :: rr)) as [-> ->] by (split; congruence). apply filter_In in I2. destruct I2 as [Ix Nx].
  split; [eapply resolution_nonblank; eassumption|]. split.
  - intros l Il Ex. unfold not_excluded, mem in Nx. apply negb_true_iff in Nx.
    assert (existsb (N.eqb x) (map (fun l0 => 2 * l0) excl) = true); [|congruence].
    apply existsb_eqb_in. rewrite Ex. apply in_map. exact Il.
  - exists c, (r0 :: rr). split; [left; reflexivity|]. split; [exact R|exact Ix].
Qed.

Theorem seal_recipients_ok t sender excl rs :
  wf3 t -> encap_recipients t sender excl = Ok rs ->
  forall p xs x, In (p, xs) rs -> In x xs ->
    get t x <> None /\ (forall l, In l excl -> x <> 2 * l)
    /\ exists copath c r, copath_nodes t sender = Ok copath /\ In c copath /\ resolution_of t c = Ok r /\ In x r.
Proof.
  intros W E. unfold encap_recipients in E. apply bind_ok in E. destruct E as (path & _ & E).
  apply bind_ok in E. destruct E as (copath & C & E). intros p xs x I1 I2. destruct (recipients_of_sound t excl path copath rs W E p xs x I1 I2) as (A & B & c & r & Ic & Er & Ix).
  split; [exact A|]. split; [exact B|]. exists copath, c, r. repeat split; assumption.
Qed.

(* a leaf removed by the commit is blank in the new tree: it receives nothing *)
Corollary removed_leaf_gets_nothing t sender excl rs l :
  wf3 t -> get t (2 * l) = None -> encap_recipients t sender excl = Ok rs ->
  forall p xs, In (p, xs) rs -> ~ In (2 * l) xs.
Proof.
  intros W B E p xs I1 I2. destruct (seal_recipients_ok t sender excl rs W E p xs (2 * l) I1 I2) as (A & _). congruence.
Qed.
