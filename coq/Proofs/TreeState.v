(* One model of a member's public tree state - the node vector, the keys and parent hashes stored in its nodes,
   and the hash cache - and of what a commit does to all three, in the order of the code: batch_edit and its
   update_hashes, then (when the commit has a path) apply_update_path, the parent hashes of the path computed
   top-down, and update_hashes for the committer.  In EVERY state reachable from a new group by commits of both
   kinds the tree is well formed (WF3, WF5, shape), every non-blank parent is parent-hash valid, and the cache is
   the from-scratch hash at every node.  The update_hashes call after the proposals cannot fail; the one after the path
   is part of the step here, and shown to succeed for the step of the code in TreeStateCode.v. *)
From Coq Require Import NArith List Lia.
From MlsV Require Import Res Tree TreeProofs Priv CommitStep ParentHash HashCache HashCacheProofs HashCacheTree.
Import ListNotations.
Local Open Scope N_scope.

Lemma decorate_untouched PHF t d sndr flt fk leafkey :
  forall n, ~ touched [sndr] n -> decorate PHF t d sndr flt fk leafkey n = d n.
Proof. apply one_leaf. apply decorate_off. Qed.

Section TS.
  Variable PHF : N -> N -> cterm -> N.      (* the parent-hash function *)
  Variable enc : N * N -> N.                (* how the hashed encoding of a node depends on its key and parent hash *)

  Record tstate := { ts_tree : tree; ts_deco : deco; ts_cache : hcache }.
  Definition pay_of (d : deco) : N -> N := fun n => enc (d n).

  Definition TInv (s : tstate) : Prop :=
    TreeOK (ts_tree s) /\ small (ts_tree s) /\ PHValid PHF (ts_tree s) (ts_deco s) /\
    CacheOK (pay_of (ts_deco s)) (ts_tree s) (ts_cache s).

  (* a commit without a path: the proposals; updated and added leaves bring their own keys *)
  Definition step_nopath (s s' : tstate) (removes : list N) (updates : list (N * N)) (adds : list N) : Prop :=
    exists added,
      batch_edit (ts_tree s) removes updates adds = TOk (ts_tree s', added) /\
      (forall n, ~ touched (removes ++ map fst updates ++ added) n -> get (ts_tree s) n <> None -> ts_deco s' n = ts_deco s n) /\
      (forall n, (forall l, In l (map fst updates) -> n <> 2 * l) -> get (ts_tree s) n <> None -> ts_deco s' n = ts_deco s n) /\
      update_hashes (pay_of (ts_deco s')) (ts_cache s) (ts_tree s') (removes ++ map fst updates ++ added) = Ok (ts_cache s').

  Definition step_path (s s' : tstate) (removes : list N) (updates : list (N * N)) (adds : list N)
             (sndr id : N) (fk : N -> N) (leafkey : N) : Prop :=
    exists t1 added dm c1 flt,
      batch_edit (ts_tree s) removes updates adds = TOk (t1, added) /\
      (forall n, ~ touched (removes ++ map fst updates ++ added) n -> get (ts_tree s) n <> None -> dm n = ts_deco s n) /\
      (forall n, (forall l, In l (map fst updates) -> n <> 2 * l) -> get (ts_tree s) n <> None -> dm n = ts_deco s n) /\
      update_hashes (pay_of dm) (ts_cache s) t1 (removes ++ map fst updates ++ added) = Ok c1 /\
      apply_update_path t1 sndr id = TOk (ts_tree s') /\
      filtered (set t1 (2 * sndr) (Some (Leaf id))) sndr = Ok flt /\
      ts_deco s' = decorate PHF (ts_tree s') dm sndr flt fk leafkey /\
      update_hashes (pay_of (ts_deco s')) c1 (ts_tree s') [sndr] = Ok (ts_cache s').

  Lemma cache_after_the_proposals s removes updates adds t1 added dm :
    TInv s -> tlen (ts_tree s) + 2 * N.of_nat (length adds) < 2 ^ 25 ->
    batch_edit (ts_tree s) removes updates adds = TOk (t1, added) ->
    (forall n, ~ touched (removes ++ map fst updates ++ added) n -> get (ts_tree s) n <> None -> dm n = ts_deco s n) ->
    exists c1, update_hashes (pay_of dm) (ts_cache s) t1 (removes ++ map fst updates ++ added) = Ok c1 /\ CacheOK (pay_of dm) t1 c1.
  Proof.
    intros ((W3 & _) & _ & _ & C) Sz B Dt.
    apply (cache_right_after_the_proposals (pay_of (ts_deco s)) (pay_of dm) _ _ _ _ _ _ _ W3 Sz B); [|exact C].
    intros n Nt G. unfold pay_of. rewrite (Dt n Nt G). reflexivity.
  Qed.

  (* the steps are always possible as far as the cache is concerned: update_hashes succeeds *)
  Theorem update_hashes_never_fails_in_a_commit s removes updates adds t1 added dm :
    TInv s -> tlen (ts_tree s) + 2 * N.of_nat (length adds) < 2 ^ 25 ->
    batch_edit (ts_tree s) removes updates adds = TOk (t1, added) ->
    (forall n, ~ touched (removes ++ map fst updates ++ added) n -> get (ts_tree s) n <> None -> dm n = ts_deco s n) ->
    exists c1, update_hashes (pay_of dm) (ts_cache s) t1 (removes ++ map fst updates ++ added) = Ok c1.
  Proof.
    intros Ti Sz B Dt. destruct (cache_after_the_proposals _ _ _ _ _ _ _ Ti Sz B Dt) as (c1 & E & _). exists c1. exact E.
  Qed.

  Theorem tinv_step_nopath s s' removes updates adds :
    TInv s -> tlen (ts_tree s) + 2 * N.of_nat (length adds) < 2 ^ 25 ->
    step_nopath s s' removes updates adds -> TInv s'.
  Proof.
    intros Ti Sz (added & B & Dt & Du & U).
    destruct (cache_after_the_proposals _ _ _ _ _ _ _ Ti Sz B Dt) as (c' & E & C'). rewrite U in E. injection E as <-.
    destruct Ti as (T & _ & V & _). destruct (tree_ok_batch_edit _ _ _ _ _ _ T Sz B) as [T1 Sm1].
    split; [exact T1|]. split; [exact Sm1|]. split; [|exact C'].
    exact (ph_batch_edit PHF _ removes updates adds _ added _ _ (proj1 T) Sz B Du V).
  Qed.

  Theorem tinv_step_path s s' removes updates adds sndr id fk leafkey :
    TInv s -> tlen (ts_tree s) + 2 * N.of_nat (length adds) < 2 ^ 25 -> small (ts_tree s') ->
    step_path s s' removes updates adds sndr id fk leafkey -> TInv s'.
  Proof.
    intros Ti Sz Sm2 (t1 & added & dm & c1 & flt & B & Dt & Du & U1 & A & F & Ed & U2).
    assert (T1 : TInv {| ts_tree := t1; ts_deco := dm; ts_cache := c1 |}).
    { apply (tinv_step_nopath s _ removes updates adds Ti Sz). exists added. exact (conj B (conj Dt (conj Du U1))). }
    destruct T1 as (T1 & Sm1 & V1 & C1). destruct s' as [t2 d2 c2]. cbn [ts_tree ts_deco ts_cache] in *. subst d2.
    split; [exact (tree_ok_update_path _ _ _ _ T1 Sm1 A)|]. split; [exact Sm2|]. split.
    - destruct T1 as (_ & W5 & Sh). exact (ph_update_path_computed PHF t1 sndr id t2 flt dm fk leafkey Sh W5 Sm1 A F V1).
    - destruct (cache_right_after_the_update_path (pay_of dm) (pay_of (decorate PHF t2 dm sndr flt fk leafkey)) t1 sndr id t2 c1 Sm1 Sm2 A) as (c' & E & C2); [|exact C1|].
      + intros n Nt _. unfold pay_of. rewrite (decorate_untouched _ _ _ _ _ _ _ n Nt). reflexivity.
      + rewrite U2 in E. injection E as <-. exact C2.
  Qed.

  Inductive treachable : tstate -> Prop :=
  | tr_init id d c : initialize_hashes (pay_of d) [] [Some (Leaf id)] = Ok c ->
      treachable {| ts_tree := [Some (Leaf id)]; ts_deco := d; ts_cache := c |}
  | tr_nopath s s' removes updates adds : treachable s ->
      tlen (ts_tree s) + 2 * N.of_nat (length adds) < 2 ^ 25 ->
      step_nopath s s' removes updates adds -> treachable s'
  | tr_path s s' removes updates adds sndr id fk leafkey : treachable s ->
      tlen (ts_tree s) + 2 * N.of_nat (length adds) < 2 ^ 25 -> small (ts_tree s') ->
      step_path s s' removes updates adds sndr id fk leafkey -> treachable s'.

  Theorem tinv_reachable s : treachable s -> TInv s.
  Proof.
    induction 1 as [id d c I|s s' removes updates adds _ IH Sz St|s s' removes updates adds sndr id fk leafkey _ IH Sz Sm2 St].
    - assert (Sm : small [Some (Leaf id)]) by (unfold small, tlen; cbn; lia).
      split; [apply tree_ok_single|]. split; [exact Sm|]. split; [apply ph_initial|]. cbn [ts_tree ts_deco ts_cache].
      destruct (initialize_hashes_correct (pay_of d) [Some (Leaf id)] Sm) as (c' & E & C). rewrite I in E. injection E as <-. exact C.
    - eapply tinv_step_nopath; eassumption.
    - eapply tinv_step_path; eassumption.
  Qed.
End TS.

(* non-vacuity: the state after the creator of a group adds a member with a commit that has a path is reachable *)
Definition ex_PHF (k p : N) (c : cterm) : N := k + 2 * p + 1.
Definition ex_enc (x : N * N) : N := fst x + 3 * snd x.
Definition ex_d0 : deco := fun n => (n + 50, 0).
Definition ex_dm : deco := fun n => if n =? 2 then (77, 0) else ex_d0 n.
Definition ex_t2 : tree := [Some (Leaf 9); Some (Par []); Some (Leaf 7)].
Definition ex_d2 : deco := decorate ex_PHF ex_t2 ex_dm 0 [false] (fun i => 200 + i) 300.

Ltac compute_lhs := match goal with |- ?l = _ => let v := eval vm_compute in l in change l with v end; reflexivity.

Lemma treachable_example : exists c, treachable ex_PHF ex_enc {| ts_tree := ex_t2; ts_deco := ex_d2; ts_cache := c |}.
Proof.
  eexists.
  eapply (tr_path ex_PHF ex_enc {| ts_tree := [Some (Leaf 1)]; ts_deco := ex_d0; ts_cache := [HLeaf 0 (Some (1, 50))] |} _ [] [] [7] 0 9 (fun i => 200 + i) 300).
  - apply tr_init. vm_compute. reflexivity.
  - vm_compute. reflexivity.
  - vm_compute. reflexivity.
  - exists [Some (Leaf 1); None; Some (Leaf 7)], [1], ex_dm. eexists. exists [false]. cbn [ts_tree ts_deco ts_cache].
    assert (D0 : forall n, get [Some (Leaf 1)] n <> None -> ex_dm n = ex_d0 n).
    { intros n G. destruct (N.eq_dec n 0) as [->|Ne]; [reflexivity|]. exfalso. apply G. unfold get.
      destruct (N.to_nat n) as [|m] eqn:E; [lia|]. destruct m; reflexivity. }
    split; [vm_compute; reflexivity|]. split; [intros n _ G; exact (D0 n G)|]. split; [intros n _ G; exact (D0 n G)|].
    split; [compute_lhs|]. split; [vm_compute; reflexivity|]. split; [vm_compute; reflexivity|]. split; [reflexivity|].
    compute_lhs.
Qed.
