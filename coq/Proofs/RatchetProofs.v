(* C05 on the ratchet state machine: every generation is handed out at most once (no key is
   used twice, a replay is rejected), any delivery order inside the window succeeds exactly
   once per message, the window is exactly 1024, a rejected request leaves the ratchet
   unchanged. *)
From Coq Require Import NArith List Bool Lia.
From MlsV Require Import Res BitsN Ratchet RatchetGen.
Import ListNotations.
Local Open Scope N_scope.

(* D = the generations already handed out, [hist s] those whose key is kept: the two lists
   partition [0, gen s) *)
Definition inv (D : list N) (s : rstate) : Prop :=
  NoDup (hist s) /\ NoDup D
  /\ (forall g, In g (hist s) -> g < gen s /\ ~ In g D)
  /\ (forall g, In g D -> g < gen s)
  /\ (forall g, g < gen s -> In g (hist s) \/ In g D).

Lemma inv_init : inv [] rinit.
Proof.
  unfold inv, rinit; cbn. split; [apply NoDup_nil|]. split; [apply NoDup_nil|].
  split; [intros g []|]. split; [intros g []|]. intros g Hg. lia.
Qed.

Lemma has_gen_in g h : has_gen g h = true <-> In g h.
Proof.
  unfold has_gen. rewrite existsb_exists. split.
  - intros (x & I & E). apply N.eqb_eq in E. subst. exact I.
  - intro I. exists g. split; [exact I|apply N.eqb_refl].
Qed.

Lemma in_remove g x h : In x (remove_gen g h) <-> In x h /\ x <> g.
Proof. unfold remove_gen. rewrite filter_In, negb_true_iff, N.eqb_neq. reflexivity. Qed.

Lemma in_span n : forall from x, In x (span n from) <-> from <= x < from + N.of_nat n.
Proof.
  induction n as [|n IH]; intros from x; cbn [span].
  - split; [intros []|lia].
  - cbn [In]. rewrite IH. lia.
Qed.

Lemma nodup_span n : forall from, NoDup (span n from).
Proof.
  induction n as [|n IH]; intro from; cbn [span]; constructor; [|apply IH].
  rewrite in_span. lia.
Qed.

Lemma nodup_app {A} (a b : list A) :
  NoDup a -> NoDup b -> (forall x, In x a -> ~ In x b) -> NoDup (a ++ b).
Proof.
  induction a as [|x a IH]; intros Na Nb D; cbn [app]; [exact Nb|].
  inversion Na; subst. constructor.
  - rewrite in_app_iff. intros [I|I]; [contradiction|]. apply (D x); [left; reflexivity|exact I].
  - apply IH; [assumption|assumption|]. intros y I. apply D. right. exact I.
Qed.

Lemma get_message_key_cases s g o s' :
  get_message_key s g = Ok (o, s') ->
  match o with
  | ROk g' => g' = g /\ if g <? gen s
                        then In g (hist s) /\ s' = {| gen := gen s; hist := remove_gen g (hist s) |}
                        else s' = {| gen := g + 1; hist := hist s ++ span (N.to_nat (g - gen s)) (gen s) |}
  | RErr _ => s' = s
  end.
Proof.
  unfold get_message_key. destruct (g <? gen s).
  - destruct (has_gen g (hist s)) eqn:H; intros [= <- <-]; [|reflexivity].
    split; [reflexivity|]. split; [apply has_gen_in; exact H|reflexivity].
  - unfold u32_add. destruct (_ <? two32); [|discriminate]. cbn [bind].
    destruct (_ <? g); [intros [= <- <-]; reflexivity|].
    destruct (_ <? two32); [|discriminate]. intros [= <- <-]. split; reflexivity.
Qed.

Lemma get_message_key_ahead s g :
  gen s <= g <= gen s + 1024 -> gen s + 1024 < 2 ^ 32 -> g + 1 < 2 ^ 32 ->
  exists s', get_message_key s g = Ok (ROk g, s').
Proof.
  intros [W1 W2] B1 B2. unfold get_message_key, MAX_RATCHET_BACK_HISTORY.
  rewrite (proj2 (N.ltb_ge _ _) W1), (u32_add_ok _ _ B1). cbn [bind].
  rewrite (proj2 (N.ltb_ge _ _) W2), (u32_add_ok _ _ B2). eexists. reflexivity.
Qed.

Lemma step_inv D s g o s' :
  inv D s -> get_message_key s g = Ok (o, s') ->
  match o with
  | ROk g' => g' = g /\ ~ In g D /\ inv (g :: D) s'
  | RErr _ => s' = s
  end.
Proof.
  intros (Nh & Nd & Hh & Hd & Hc) E. apply get_message_key_cases in E. destruct o as [g'|e]; [|exact E].
  destruct E as [-> E]. split; [reflexivity|]. destruct (N.ltb_spec g (gen s)) as [Lt|Ge].
  - destruct E as [Hg ->]. destruct (Hh g Hg) as [_ ND]. split; [exact ND|].
    split; [apply NoDup_filter; exact Nh|]. split; [constructor; assumption|]. cbn [gen hist].
    split; [|split].
    + intros g0 I. apply in_remove in I. destruct I as [I Ne]. destruct (Hh g0 I) as [L N0].
      split; [exact L|]. intros [E1|I2]; [congruence|contradiction].
    + intros g0 [<-|I]; [exact Lt|apply Hd; exact I].
    + intros g0 L. destruct (N.eq_dec g0 g) as [->|Ne]; [right; left; reflexivity|].
      destruct (Hc g0 L) as [I|I]; [left; apply in_remove; tauto|right; right; exact I].
  - subst s'. assert (ND : ~ In g D) by (intro I; apply Hd in I; lia). split; [exact ND|].
    split; [|split; [constructor; assumption|cbn [gen hist]; split; [|split]]].
    + apply nodup_app; [exact Nh|apply nodup_span|]. intros x I J. apply Hh in I. apply in_span in J. lia.
    + intros g0 I. apply in_app_iff in I. destruct I as [I|I].
      * destruct (Hh g0 I) as [L N0]. split; [lia|]. intros [E1|I2]; [lia|contradiction].
      * apply in_span in I. split; [lia|]. intros [E1|I2]; [lia|]. apply Hd in I2. lia.
    + intros g0 [<-|I]; [lia|]. apply Hd in I. lia.
    + intros g0 L. destruct (N.eq_dec g0 g) as [->|Ne]; [right; left; reflexivity|].
      destruct (N.lt_ge_cases g0 (gen s)) as [L2|G2].
      * destruct (Hc g0 L2) as [I|I]; [left; apply in_app_iff; left; exact I|right; right; exact I].
      * left. apply in_app_iff. right. apply in_span. lia.
Qed.

Lemma run_recv_inv gs : forall D s os s',
  inv D s -> run_recv s gs = Ok (os, s') -> inv (rev (oks os) ++ D) s'.
Proof.
  induction gs as [|g r IH]; intros D s os s' I; cbn [run_recv].
  - intros [= <- <-]. exact I.
  - destruct (get_message_key s g) as [[o s1]| |] eqn:E1; cbn [bind]; try discriminate.
    destruct (run_recv s1 r) as [[os1 s2]| |] eqn:E2; cbn [bind ret]; try discriminate.
    intros [= <- <-].
    pose proof (step_inv D s g o s1 I E1) as St. destruct o as [g'|e].
    + destruct St as (-> & _ & I1). change (oks (ROk g :: os1)) with (g :: oks os1).
      cbn [rev]. rewrite <- app_assoc. exact (IH _ _ _ _ I1 E2).
    + subst s1. exact (IH _ _ _ _ I E2).
Qed.

Theorem receive_once gs os s' :
  run_recv rinit gs = Ok (os, s') -> NoDup (oks os).
Proof.
  intro E. destruct (run_recv_inv gs [] rinit os s' inv_init E) as (_ & N & _).
  rewrite app_nil_r in N. rewrite <- (rev_involutive (oks os)). apply NoDup_rev. exact N.
Qed.

(* a refused request (replay, too far ahead) does not change the ratchet *)
Theorem reject_keeps_state s g e s' D :
  inv D s -> get_message_key s g = Ok (RErr e, s') -> s' = s.
Proof. intros _ E. exact (get_message_key_cases s g (RErr e) s' E). Qed.

(* the window is exactly 1024 generations ahead of the next expected one *)
Theorem window_exact s g : gen s + 1025 < 2 ^ 32 -> gen s <= g ->
  (g <= gen s + 1024 -> exists s', get_message_key s g = Ok (ROk g, s'))
  /\ (gen s + 1024 < g -> get_message_key s g = Ok (RErr InvalidFutureGeneration, s)).
Proof.
  intros B Ge. split; intro W; [apply get_message_key_ahead; lia|].
  unfold get_message_key, MAX_RATCHET_BACK_HISTORY.
  rewrite (proj2 (N.ltb_ge _ _) Ge), u32_add_ok by lia. cbn [bind]. rewrite (proj2 (N.ltb_lt _ _) W). reflexivity.
Qed.

(* one step of reordering: a generation not yet handed out and inside the window is accepted *)
Lemma reorder_step D s g :
  inv D s -> ~ In g D -> g <= gen s + 1024 -> g + 1 < 2 ^ 32 -> gen s + 1024 < 2 ^ 32 ->
  exists s', get_message_key s g = Ok (ROk g, s').
Proof.
  intros (_ & _ & _ & _ & Hc) ND W B1 B2. destruct (N.lt_ge_cases g (gen s)) as [Lt|Ge].
  - destruct (Hc g Lt) as [I|I]; [|contradiction]. apply has_gen_in in I.
    unfold get_message_key. rewrite (proj2 (N.ltb_lt _ _) Lt), I. eexists. reflexivity.
  - apply get_message_key_ahead; lia.
Qed.

(* sender side: n calls of next_message_key hand out gen s, gen s + 1, ... in this order *)
Lemma run_send_gens n : forall s os s',
  run_send s n = Ok (os, s') -> oks os = span n (gen s) /\ gen s' = gen s + N.of_nat n.
Proof.
  induction n as [|n IH]; intros s os s'; cbn [run_send].
  - intros [= <- <-]. split; [reflexivity|lia].
  - unfold next_message_key at 1. unfold u32_add. destruct (gen s + 1 <? two32); [|discriminate]. cbn [bind ret].
    destruct (run_send _ n) as [[os1 s2]| |] eqn:E2; cbn [bind ret]; try discriminate.
    intros [= <- <-]. apply IH in E2. cbn [gen] in E2. destruct E2 as [E2 E3].
    cbn [oks flat_map app span]. change (flat_map _ os1) with (oks os1). rewrite E2. split; [reflexivity|lia].
Qed.

Theorem sender_generations_distinct n os s' :
  run_send rinit n = Ok (os, s') -> NoDup (oks os).
Proof. intro E. apply run_send_gens in E. destruct E as [-> _]. apply nodup_span. Qed.

(* all senders of an epoch: no (leaf, kind, generation) is handed out twice *)
Lemma rkey_eqb_spec a b : reflect (a = b) (rkey_eqb a b).
Proof.
  destruct a as [l1 t1], b as [l2 t2]. unfold rkey_eqb; cbn [fst snd].
  destruct (N.eqb_spec l1 l2) as [->|Ne], (Bool.eqb_spec t1 t2) as [->|Nt]; constructor; congruence.
Qed.

Lemma rget_rset_same m k s : rget (rset m k s) k = s.
Proof. unfold rset; cbn [rget]. destruct (rkey_eqb_spec k k); [reflexivity|contradiction]. Qed.

Lemma rget_rset_other m k k' s : k <> k' -> rget (rset m k s) k' = rget m k'.
Proof. intro Ne. unfold rset; cbn [rget]. destruct (rkey_eqb_spec k k'); [contradiction|reflexivity]. Qed.

Lemma rget_rset_mono m k s k' : gen (rget m k) <= gen s -> gen (rget m k') <= gen (rget (rset m k s) k').
Proof.
  intro L. destruct (rkey_eqb_spec k k') as [<-|Ne]; [rewrite rget_rset_same; exact L|].
  rewrite rget_rset_other by exact Ne. reflexivity.
Qed.

Lemma run_sends_fresh sends : forall m os m',
  run_sends m sends = Ok (os, m') ->
  NoDup os /\ (forall k g, In (k, g) os -> gen (rget m k) <= g) /\ (forall k, gen (rget m k) <= gen (rget m' k)).
Proof.
  induction sends as [|k r IH]; intros m os m'; cbn [run_sends].
  - intros [= <- <-]. split; [constructor|]. split; [intros ? ? []|intro; lia].
  - unfold next_message_key at 1. unfold u32_add. destruct (gen (rget m k) + 1 <? two32); [|discriminate]. cbn [bind ret].
    destruct (run_sends _ r) as [[os1 m1]| |] eqn:E1; cbn [bind ret]; try discriminate.
    intros [= <- <-]. destruct (IH _ _ _ E1) as (N1 & F1 & M1).
    set (s1 := {| gen := gen (rget m k) + 1; hist := hist (rget m k) |}) in *.
    assert (Mo : forall k', gen (rget m k') <= gen (rget (rset m k s1) k')) by (intro; apply rget_rset_mono; cbn; lia).
    split; [|split].
    + constructor; [|exact N1]. intro I. apply F1 in I. rewrite rget_rset_same in I. cbn [gen s1] in I. lia.
    + intros k0 g0 [E0|I]; [injection E0 as <- <-; lia|]. apply F1 in I. specialize (Mo k0). lia.
    + intro k0. specialize (M1 k0). specialize (Mo k0). lia.
Qed.

Theorem senders_never_share_a_key sends os m' :
  run_sends [] sends = Ok (os, m') -> NoDup os.
Proof. intro E. exact (proj1 (run_sends_fresh sends [] os m' E)). Qed.

(* a handshake key and an application key of one leaf differ in the kind component of the triple *)
Theorem app_hs_disjoint sends os m' leaf g1 g2 :
  run_sends [] sends = Ok (os, m') -> In ((leaf, true), g1) os -> In ((leaf, false), g2) os ->
  ((leaf, true), g1) <> ((leaf, false), g2).
Proof. intros _ _ _ E. inversion E. Qed.

(* SecretKeyRatchet::get_message_key as translated from secret_tree.rs (Gen/RatchetGen.v)
   is this state machine *)
Theorem gen_window_is_model : gen_window = MAX_RATCHET_BACK_HISTORY.
Proof. reflexivity. Qed.

Theorem gen_get_message_key_is_model s g : gen_get_message_key s g = get_message_key s g.
Proof. reflexivity. Qed.
