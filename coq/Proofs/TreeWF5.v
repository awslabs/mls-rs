(* WF5: every non-blank parent has a member (non-blank leaf) in each of its two subtrees.
   Preserved by every commit; consequence: a FILTERED node of a committer's path (empty copath
   resolution) is blank. *)
From Coq Require Import NArith Arith List Lia.
From MlsV Require Import Res TreeMathGen TreeMathProofs Tree TreeProofs TreeWF Decap DecapProofs.
Import ListNotations.
Local Open Scope N_scope.

Definition has_member (t : tree) (k j : N) : Prop := exists l, l / 2 ^ k = j /\ get t (2 * l) <> None.
Definition wf5 (t : tree) : Prop :=
  forall k j um, get t (node (k + 1) j) = Some (Par um) -> has_member t k (2 * j) /\ has_member t k (2 * j + 1).

(* t' has no more non-blank parents and no fewer non-blank leaves than t *)
Definition thinner (t t' : tree) : Prop :=
  (forall p, N.even p = false -> get t' p <> None -> get t p <> None) /\
  (forall l, get t (2 * l) <> None -> get t' (2 * l) <> None).

Lemma thinner_trans a b c : thinner a b -> thinner b c -> thinner a c.
Proof. intros [A1 A2] [B1 B2]. split; intros; auto. Qed.

Lemma wf5_mono t t' : wf5 t -> shape_ok t -> thinner t t' -> wf5 t'.
Proof.
  intros W S [R1 R2] k j um G.
  assert (Nb : get t (node (k + 1) j) <> None) by (apply R1; [apply node_odd_S|congruence]).
  destruct (get t (node (k + 1) j)) as [[id|um0]|] eqn:G0; [destruct (shape_parent_slot _ _ _ S (node_odd_S _ _) G0)| |congruence].
  destruct (W k j um0 G0) as [[l1 [E1 N1]] [l2 [E2 N2]]]. split; [exists l1|exists l2]; split; auto.
Qed.

Lemma thinner_set_leaf t i id : thinner t (set t (2 * i) (Some (Leaf id))).
Proof.
  split.
  - intros p O Nb. rewrite get_set_other in Nb; [exact Nb|]. intro E. subst p. rewrite N.even_mul in O. discriminate.
  - intros l Nb. destruct (N.eq_dec (2 * l) (2 * i)) as [E|Ne].
    + rewrite E. rewrite get_set_same; [discriminate|]. rewrite <- E.
      destruct (get t (2 * l)) as [n|] eqn:G; [eapply get_some_lt; exact G|congruence].
    + rewrite get_set_other by congruence. exact Nb.
Qed.

Lemma wf5_set_leaf t i id : wf5 t -> shape_ok t -> wf5 (set t (2 * i) (Some (Leaf id))).
Proof. intros W S. exact (wf5_mono _ _ W S (thinner_set_leaf t i id)). Qed.

Lemma thinner_get_eq t t' : (forall i, get t' i = get t i) -> thinner t t'.
Proof. intro E. split; intros; rewrite E in *; assumption. Qed.

Lemma thinner_insert_leaf t l id : thinner t (insert_leaf t l (Leaf id)).
Proof.
  destruct (insert_leaf_set t l (Leaf id)) as (t0 & -> & E & _).
  eapply thinner_trans; [apply thinner_get_eq; exact E|apply thinner_set_leaf].
Qed.

Lemma thinner_update_unmerged path t leaf t' : update_unmerged t leaf path = TOk t' -> thinner t t'.
Proof.
  intro U. pose proof (update_unmerged_get _ _ _ _ U) as Sp. split.
  - intros p _ Nb Z. pose proof (proj2 (Sp p)) as B. rewrite Z in B. contradiction.
  - intros l Nb. pose proof (proj2 (Sp (2 * l))) as B.
    destruct (get t (2 * l)) as [[x|um]|]; [rewrite B; discriminate|destruct B as (um' & -> & _); discriminate|contradiction].
Qed.

Lemma thinner_blank_parents ns : forall t, Forall (fun p => N.even p = false) ns -> thinner t (blank_nodes t ns).
Proof.
  intros t F. rewrite Forall_forall in F. split.
  - intros p O Nb. rewrite get_blank_nodes in Nb. destruct (existsb (N.eqb p) ns); [congruence|exact Nb].
  - intros l Nb. rewrite get_blank_nodes_notin; [exact Nb|]. intro I. apply F in I. rewrite N.even_mul in I. discriminate.
Qed.

Lemma thinner_trim t : thinner t (trim t).
Proof.
  apply thinner_get_eq. intro i. apply get_trim.
Qed.

Lemma thinner_add_leaf t id start t' idx : add_leaf t id start = TOk (t', idx) -> thinner t t'.
Proof.
  intro A. apply add_leaf_ok in A. destruct A as (_ & _ & path & _ & U).
  eapply thinner_trans; [apply thinner_insert_leaf|eapply thinner_update_unmerged; exact U].
Qed.

Lemma wf5_blanked (B : N -> Prop) t t' :
  (forall n, B n -> get t' n = None) -> (forall n, ~ B n -> get t' n = get t n) ->
  (forall m p, B (2 * m) -> ancestor p m -> B p) -> wf5 t -> wf5 t'.
Proof.
  intros Bl Fr Up W k j um G.
  assert (Nq : ~ B (node (k + 1) j)) by (intro Bq; rewrite (Bl _ Bq) in G; discriminate).
  rewrite (Fr _ Nq) in G. destruct (W k j um G) as [[l1 [E1 N1]] [l2 [E2 N2]]].
  split; [exists l1|exists l2]; (split; [assumption|]); (rewrite Fr; [assumption|]);
    intro Bm; apply Nq, (Up _ _ Bm), ancestor_node_N, child_of_N; auto.
Qed.

Theorem wf5_remove t l t1 t2 :
  wf5 t -> small t -> blank_leaf t l = TOk t1 -> blank_direct_path t1 l = TOk t2 -> wf5 t2.
Proof.
  intros W S B D.
  apply (wf5_blanked (fun n => n = 2 * l \/ ancestor n l) t t2); [exact (remove_blanks t l t1 t2 S B D)| |apply above_removed|exact W].
  intros n Nn. apply (remove_frame t l t1 t2 S B D); tauto.
Qed.

(* a Remove needs its own argument; the other edits only add leaves or take parents away *)
Theorem wf5_batch_edit t removes updates adds t' added :
  wf5 t -> shape_ok t -> tlen t + 2 * N.of_nat (length adds) < 2 ^ 25 ->
  batch_edit t removes updates adds = TOk (t', added) ->
  (shape_ok t' /\ wf5 t') /\ tlen t' <= tlen t + 2 * N.of_nat (length adds).
Proof.
  intros W Sh S B.
  refine (batch_edit_preserves (fun t => shape_ok t /\ wf5 t) _ _ _ _ _ _ _ _ _ _ _ (conj Sh W) S B).
  - intros t0 l t1 t2 [Sh0 W0] S0 B0 D0. split; [eapply shape_remove|eapply wf5_remove]; eassumption.
  - intros t0 i x id [Sh0 W0] _. split; [apply shape_set_leaf; exact Sh0|apply wf5_set_leaf; assumption].
  - intros t0 l t1 [Sh0 W0] S0 L D. split; [eapply shape_blank_direct_path; eassumption|].
    eapply wf5_mono; [exact W0|exact Sh0|]. apply blank_direct_path_ok in D. destruct D as (p & P & ->).
    apply thinner_blank_parents. eapply path_nodes_odd; [exact S0| |exact P]. lia.
  - intros t0 id start t1 idx [Sh0 W0] _ _ A. split; [eapply shape_add_leaf; eassumption|].
    eapply wf5_mono; [exact W0|exact Sh0|eapply thinner_add_leaf; exact A].
  - intros t0 [Sh0 W0]. split; [apply shape_trim; exact Sh0|eapply wf5_mono; [exact W0|exact Sh0|apply thinner_trim]].
Qed.

Lemma member_up t k j : has_member t k j -> has_member t (k + 1) (j / 2).
Proof. intros [l [E Nb]]. exists l. split; [|exact Nb]. rewrite <- div_pow2_succ, E. reflexivity. Qed.

Lemma reso_nonempty_member t : shape_ok t -> wf5 t -> forall k j x, In x (reso_spec t k j) -> has_member t (N.of_nat k) j.
Proof.
  intros Sh W. induction k as [|k IH]; intros j x; cbn [reso_spec].
  - cbn [N.of_nat]. rewrite node_0. destruct (get t (2 * j)) as [[id|um]|] eqn:G.
    + intros _. exists j. split; [rewrite N.pow_0_r; apply N.div_1_r|congruence].
    + destruct (shape_leaf_slot _ _ _ Sh G).
    + intros [].
  - rewrite of_nat_S. destruct (get t (node (N.of_nat k + 1) j)) as [[id|um]|] eqn:G.
    + destruct (shape_parent_slot _ _ _ Sh (node_odd_S _ _) G).
    + intros _. destruct (W _ _ _ G) as [M _]. apply member_up in M. rewrite half_double in M. exact M.
    + intro I. apply in_app_or in I. destruct I as [I|I]; apply IH, member_up in I.
      * rewrite half_double in I. exact I.
      * rewrite half_succ_double in I. exact I.
Qed.

Lemma wf5_set_par t n k j : wf5 t -> has_member t k (2 * j) -> has_member t k (2 * j + 1) ->
  wf5 (set (t ++ repeat None n) (node (k + 1) j) (Some (Par []))).
Proof.
  intros W M1 M2.
  assert (Keep : forall k0 j0, has_member t k0 j0 -> has_member (set (t ++ repeat None n) (node (k + 1) j) (Some (Par []))) k0 j0).
  { intros k0 j0 [l [E Nb]]. exists l. split; [exact E|]. rewrite get_set_other, get_app_blank; [exact Nb|apply not_leaf_node_succ]. }
  intros k0 j0 um G. rewrite get_set in G. destruct (N.eqb_spec (node (k0 + 1) j0) (node (k + 1) j)) as [E|_].
  - apply node_inj in E. destruct E as [Ek ->]. apply N.add_cancel_r in Ek. subst k0. split; apply Keep; assumption.
  - rewrite get_app_blank in G. destruct (W k0 j0 um G) as [A B]. split; apply Keep; assumption.
Qed.

(* along the committer's path: the subtree the path comes from has a member (the committer); a path node whose
   copath resolution is not empty gets a parent, and then the copath subtree has a member as well *)
Lemma wf5_apply_path_spec orig n : forall k j t t',
  shape_ok orig -> wf5 orig ->
  (forall l, get orig (2 * l) <> None -> get t (2 * l) <> None) ->
  wf5 t -> has_member orig (N.of_nat k) j ->
  (k + n <= 29)%nat -> (sz (k + n) <= 2 * length orig + 3)%nat ->
  apply_path_nodes t (map CopathNode_path (path_spec n (N.of_nat k) j)) (map CopathNode_copath (path_spec n (N.of_nat k) j)) orig = Ok t' ->
  wf5 t'.
Proof.
  induction n as [|n IH]; intros k j t t' Sh Wo Lv Wt M Lk Fz; cbn [path_spec map apply_path_nodes CopathNode_path CopathNode_copath].
  - intro E. injection E as <-. exact Wt.
  - unfold resolution_empty. rewrite resolution_of_spec_fuel by (pose proof (sz_mono k (k + S n)); lia). cbn [bind ret].
    rewrite Nat.add_succ_r in Lk, Fz.
    assert (M' : has_member orig (N.of_nat (S k)) (j / 2)) by (rewrite of_nat_S; apply member_up; exact M).
    rewrite <- of_nat_S.
    destruct (reso_spec orig k (sib j)) as [|x0 r0] eqn:Rs; [exact (IH (S k) (j / 2) t t' Sh Wo Lv Wt M' Lk Fz)|].
    refine (IH (S k) (j / 2) _ t' Sh Wo _ _ M' Lk Fz); rewrite of_nat_S.
    + intros l Nb. rewrite get_set_other, get_app_blank; [apply Lv; exact Nb|apply not_leaf_node_succ].
    + assert (Msib : has_member orig (N.of_nat k) (sib j)).
      { apply (reso_nonempty_member orig Sh Wo k (sib j) x0). rewrite Rs. left. reflexivity. }
      assert (Up : forall jj, has_member orig (N.of_nat k) jj -> has_member t (N.of_nat k) jj).
      { intros jj [l [El Nl]]. exists l. split; [exact El|apply Lv; exact Nl]. }
      apply wf5_set_par; [exact Wt| |]; apply (children_sib (has_member t (N.of_nat k)) j); split; apply Up; assumption.
Qed.

Theorem wf5_apply_update_path t sender id t' :
  wf5 t -> shape_ok t -> small t -> apply_update_path t sender id = TOk t' -> wf5 t'.
Proof.
  intros W Sh S A. apply apply_update_path_ok in A. destruct A as ([x G] & path & copath & P & C & A).
  set (t1 := set t (2 * sender) (Some (Leaf id))) in *.
  assert (Lt : 2 * sender < tlen t) by (eapply get_some_lt; exact G).
  assert (L1 : tlen t1 = tlen t) by apply set_length.
  pose proof (wf5_set_leaf t sender id W Sh) as W1. pose proof (small_set t (2 * sender) (Some (Leaf id)) S) as S1.
  destruct (path_nodes_spec t1 sender S1 ltac:(lia)) as (d & Et & Hd & Hl & P' & C').
  rewrite P' in P. rewrite C' in C. injection P as <-. injection C as <-. change 0 with (N.of_nat 0) in A.
  refine (wf5_apply_path_spec t1 (N.to_nat d) 0 sender t1 t' (shape_set_leaf _ _ _ Sh) W1 (fun _ Nb => Nb) W1 _ ltac:(lia) (depth_fuel t1 d S1 Et) A).
  exists sender. split; [apply N.div_1_r|]. unfold t1. rewrite get_set_same by exact Lt. discriminate.
Qed.

Theorem wf5_apply_commit t removes updates adds path t' added :
  wf3 t -> wf5 t -> shape_ok t -> tlen t + 2 * N.of_nat (length adds) < 2 ^ 25 ->
  apply_commit t removes updates adds path = TOk (t', added) -> wf5 t'.
Proof.
  intros _ W Sh S A. apply apply_commit_ok in A. destruct A as (t1 & B & A).
  destruct (wf5_batch_edit _ _ _ _ _ _ W Sh S B) as [[Sh1 W1] L1].
  destruct path as [[sender id]|]; [|subst; exact W1].
  eapply wf5_apply_update_path; [exact W1|exact Sh1| |exact A]. unfold small. lia.
Qed.

Theorem filtered_node_is_blank t s k :
  shape_ok t -> wf5 t -> (k <= 29)%nat -> (sz k + 1 <= 2 * length t + 4)%nat ->
  get t (2 * s) <> None ->
  resolution_empty t (node (N.of_nat k) (sib (s / 2 ^ N.of_nat k))) = Ok true ->
  get t (node (N.of_nat k + 1) (s / 2 ^ (N.of_nat k + 1))) = None.
Proof.
  intros Sh W L F _ E.
  destruct (get t (node (N.of_nat k + 1) (s / 2 ^ (N.of_nat k + 1)))) as [[id|um]|] eqn:G; [| |reflexivity]; exfalso.
  - exact (shape_parent_slot _ _ _ Sh (node_odd_S _ _) G).
  - (* the parent has a member on the copath side, so that resolution is not empty *)
    rewrite <- div_pow2_succ in G. apply W, (children_sib (has_member t (N.of_nat k))) in G. destruct G as [_ [l [El Nl]]].
    rewrite (member_resolution_nonempty t k _ l (resolution_of_spec_fuel t k _ L F) El Nl) in E. discriminate E.
Qed.

Lemma wf5_single id : wf5 [Some (Leaf id)].
Proof.
  intros k j um G. destruct (get_single _ _ _ G) as [_ H]. discriminate.
Qed.

(* a run of apply_commit: one Add, then an update path *)
Example wf5_ex : let t := [Some (Leaf 10); Some (Par []); None; Some (Par [2]); Some (Leaf 12); None; None] in
  apply_commit t [] [] [13] (Some (0, 11)) =
    TOk ([Some (Leaf 11); Some (Par []); Some (Leaf 13); Some (Par []); Some (Leaf 12)], [1]).
Proof. vm_compute. reflexivity. Qed.
