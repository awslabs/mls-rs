(* The node-vector operations as translated from tree_kem/node.rs (Gen/NodeVecGen.v) are the
   operations of the tree model (Model/Tree.v) that the theorems of C08 / C01 are about, for every
   tree; the phases of batch_edit come in the order the model applies them. *)
From Coq Require Import NArith List Lia.
From MlsV Require Import Tree NodeVecGen.
Import ListNotations.
Local Open Scope N_scope.

Lemma trim_rev_app_blank l : trim_rev (None :: l) = trim_rev l.
Proof. reflexivity. Qed.

Lemma gen_trim_loop_spec : forall fuel t, (length t <= fuel)%nat -> gen_trim_loop fuel t = trim t.
Proof.
  induction fuel as [|fuel IH]; intros t L.
  - destruct t; [reflexivity|cbn [length] in L; lia].
  - cbn [gen_trim_loop]. unfold last_is_blank, trim.
    destruct (rev t) as [|x r] eqn:E.
    + cbn [trim_rev rev]. apply (f_equal (@rev _)) in E. rewrite rev_involutive in E. exact E.
    + assert (T : t = rev r ++ [x]) by (apply (f_equal (@rev _)) in E; rewrite rev_involutive in E; exact E).
      destruct x as [n|].
      * cbn [trim_rev rev]. exact T.
      * cbn [trim_rev]. subst t. rewrite removelast_last. rewrite IH.
        -- unfold trim. rewrite rev_involutive. reflexivity.
        -- rewrite app_length in L. cbn [length] in L. lia.
Qed.

Lemma translated_node_vector t start index leaf :
  gen_next_empty_leaf t start = next_empty_leaf t start /\
  gen_insert_leaf t index leaf = insert_leaf t index leaf /\
  gen_trim t = trim t /\
  gen_total_leaf_count t = total_leaf_count t /\
  gen_batch_phases = batch_phases.
Proof.
  split; [|split; [|split; [apply gen_trim_loop_spec; lia|split; reflexivity]]].
  - unfold gen_next_empty_leaf, next_empty_leaf. generalize (S (length t)) as fuel. generalize (2 * start) as n.
    intros n fuel. revert n. induction fuel as [|fuel IH]; intro n; cbn [gen_next_empty_loop next_empty_from]; [reflexivity|].
    destruct (n <? tlen t); [|reflexivity]. destruct (get t n); cbn [is_none]; [apply IH|reflexivity].
  - unfold gen_insert_leaf, insert_leaf. cbv zeta. destruct (tlen t <? 2 * index).
    + rewrite <- app_assoc. reflexivity.
    + destruct (tlen t =? 0) eqn:E; [|reflexivity].
      apply N.eqb_eq in E. unfold tlen in E. destruct t; [reflexivity|cbn [length] in E; lia].
Qed.
