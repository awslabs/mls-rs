(* The late-sender rule as translated from group/mod.rs and group/util.rs (Gen/LateSenderGen.v) is
   the decision function the theorem of C19 is about (late_sender_ok), applied to the keys that
   insert_past_epoch archives: one entry per leaf slot, so the index of a sender means the same
   leaf in the archived list and in the tree.  It stands apart from StorageProofs.v so that the
   executable [late_sender_ok] can be loaded without the generated file. *)
From Coq Require Import NArith List.
From MlsV Require Import StorageProofs LateSenderGen.
Import ListNotations.
Local Open Scope N_scope.

Theorem gen_late_sender_ok_is_model old cur i :
  gen_late_sender_ok old cur i = late_sender_ok old cur i.
Proof.
  unfold gen_late_sender_ok, late_sender_ok. rewrite <- !nth_default_eq. unfold nth_default.
  destruct (nth_error old i) as [[a|]|], (nth_error cur i) as [[c|]|]; cbn [okey_eqb negb]; try reflexivity;
    destruct (a =? c); reflexivity.
Qed.

Theorem gen_archived_keys_keep_positions leaves i :
  nth i (gen_archived_keys leaves) None = nth i leaves None /\ length (gen_archived_keys leaves) = length leaves.
Proof.
  unfold gen_archived_keys. split; [|apply map_length].
  change (@None N) with (option_map (fun n : N => n) None) at 1. rewrite map_nth.
  destruct (nth i leaves None); reflexivity.
Qed.

Theorem translated_late_sender_rule old_leaves cur_leaves i k :
  nth i old_leaves None = Some k ->
  (gen_late_sender_ok (gen_archived_keys old_leaves) cur_leaves i = true <-> nth i cur_leaves None = Some k).
Proof.
  intro E. rewrite gen_late_sender_ok_is_model. apply late_sender_rule.
  rewrite (proj1 (gen_archived_keys_keep_positions old_leaves i)). exact E.
Qed.
