(* The two strategies of the proposal rules agree: what the committer's filter keeps is
   accepted unchanged by a receiver; a receiver never drops anything; what `retain` drops for
   the committer came in by reference. *)
From Coq Require Import NArith List Bool Arith Lia.
From MlsV Require Import Filter.
Import ListNotations.
Local Open Scope N_scope.

Inductive sub {A} : list A -> list A -> Prop :=
| sub_nil : sub [] []
| sub_skip x l' l : sub l' l -> sub l' (x :: l)
| sub_keep x l' l : sub l' l -> sub (x :: l') (x :: l).

Lemma sub_refl {A} (l : list A) : sub l l.
Proof. induction l; constructor; assumption. Qed.
Lemma sub_nil_l {A} (l : list A) : sub [] l.
Proof. induction l; constructor; assumption. Qed.
Lemma sub_trans {A} (a b c : list A) : sub a b -> sub b c -> sub a c.
Proof.
  intros H1 H2. revert a H1. induction H2 as [|x b c H IH|x b c H IH]; intros a H1.
  - exact H1.
  - constructor. apply IH. exact H1.
  - inversion H1; subst; constructor; apply IH; assumption.
Qed.
Lemma sub_app {A} (x y u v : list A) : sub x y -> sub u v -> sub (x ++ u) (y ++ v).
Proof. intros S1 S2. induction S1; cbn [app]; [exact S2| |]; constructor; assumption. Qed.
Lemma sub_filter {A} (f : A -> bool) l : sub (filter f l) l.
Proof. induction l as [|x r IH]; cbn [filter]; [constructor|]. destruct (f x); constructor; exact IH. Qed.
Lemma sub_filter_mono {A} (f : A -> bool) a b : sub a b -> sub (filter f a) (filter f b).
Proof. induction 1 as [|x a b H IH|x a b H IH]; cbn [filter]; [constructor| |]; destruct (f x); try constructor; exact IH. Qed.
Lemma sub_map {A B} (f : A -> B) a b : sub a b -> sub (map f a) (map f b).
Proof. induction 1; cbn [map]; constructor; assumption. Qed.
Lemma sub_concat_map {A B} (f : A -> list B) a b : sub a b -> sub (concat (map f a)) (concat (map f b)).
Proof.
  induction 1 as [|x a b H IH|x a b H IH]; cbn [map concat]; [constructor| |].
  - exact (sub_app [] _ _ _ (sub_nil_l _) IH).
  - exact (sub_app _ _ _ _ (sub_refl _) IH).
Qed.
Lemma sub_rev {A} (a b : list A) : sub a b -> sub (rev a) (rev b).
Proof.
  induction 1 as [|x a b H IH|x a b H IH]; cbn [rev]; [constructor| |].
  - rewrite <- (app_nil_r (rev a)). apply sub_app; [exact IH|apply sub_nil_l].
  - apply sub_app; [exact IH|apply sub_refl].
Qed.
Lemma sub_in {A} (a b : list A) x : sub a b -> In x a -> In x b.
Proof. induction 1 as [|y a b H IH|y a b H IH]; intro I; [exact I|right; apply IH; exact I|destruct I as [<-|I]; [left; reflexivity|right; apply IH; exact I]]. Qed.
Lemma forallb_sub {A} (f : A -> bool) a b : sub a b -> forallb f b = true -> forallb f a = true.
Proof.
  induction 1 as [|y a b H IH|y a b H IH]; cbn [forallb]; intro F; [reflexivity| |].
  - apply andb_true_iff in F. apply IH. apply F.
  - apply andb_true_iff in F. destruct F as [F1 F2]. rewrite F1. apply IH. exact F2.
Qed.
Lemma sub_length {A} (a b : list A) : sub a b -> (length a <= length b)%nat.
Proof. induction 1; cbn [length]; lia. Qed.
Lemma sub_same_length {A} (a b : list A) : sub a b -> length a = length b -> a = b.
Proof.
  induction 1 as [|y a b H IH|y a b H IH]; cbn [length]; intro E; [reflexivity| |].
  - pose proof (sub_length _ _ H). lia.
  - f_equal. apply IH. lia.
Qed.

Lemma forallb_filter {A} (f : A -> bool) l : forallb f (filter f l) = true.
Proof. induction l as [|x r IH]; cbn [filter]; [reflexivity|]. destruct (f x) eqn:E; [cbn [forallb]; rewrite E; exact IH|exact IH]. Qed.
Lemma filter_all {A} (f : A -> bool) l : forallb f l = true -> filter f l = l.
Proof. induction l as [|x r IH]; cbn [forallb filter]; [reflexivity|]. intro F. apply andb_true_iff in F. destruct F as [-> F]. rewrite (IH F). reflexivity. Qed.
Lemma filter_negb_nil {A} (f : A -> bool) l : filter f (filter (fun x => negb (f x)) l) = [].
Proof. induction l as [|x r IH]; cbn [filter]; [reflexivity|]. destruct (f x) eqn:E; cbn [negb filter]; [exact IH|rewrite E; exact IH]. Qed.

Lemma retain_none l l' : retain IgnoreNone l = Some l' -> l' = map fst l /\ forallb snd l = true.
Proof.
  revert l'. induction l as [|[p ok] r IH]; intros l'; cbn [retain map fst forallb snd]; [intro E; split; congruence|].
  destruct (retain IgnoreNone r) as [r'|]; [|discriminate]. destruct ok; [|discriminate].
  intro E. destruct (IH r' eq_refl) as [-> F]. split; [congruence|exact F].
Qed.
Lemma retain_all_ok st l : forallb snd l = true -> retain st l = Some (map fst l).
Proof.
  induction l as [|[p ok] r IH]; cbn [retain map fst forallb snd]; [reflexivity|]. intro F.
  apply andb_true_iff in F. destruct F as [-> F]. rewrite (IH F). reflexivity.
Qed.
Lemma retain_byref l l' : retain IgnoreByRef l = Some l' ->
  l' = map fst (filter snd l) /\ forallb (fun x => snd x || p_by_ref (fst x)) l = true.
Proof.
  revert l'. induction l as [|[p ok] r IH]; intros l'; cbn [retain map fst filter forallb snd]; [intro E; split; congruence|].
  destruct (retain IgnoreByRef r) as [r'|]; [|discriminate]. destruct (IH r' eq_refl) as [-> F]. destruct ok; cbn [orb map fst].
  - intro E. split; [congruence|exact F].
  - destruct (p_by_ref p); [|discriminate]. intro E. split; [congruence|exact F].
Qed.

(* what the committer drops came in by reference: an offending by-value proposal makes the build fail *)
Lemma retain_drops_by_ref l l' : retain IgnoreByRef l = Some l' ->
  forall p ok, In (p, ok) l -> ~ In p l' -> p_by_ref p = true.
Proof.
  intros E p ok I N. apply retain_byref in E. destruct E as [-> F]. rewrite forallb_forall in F.
  specialize (F (p, ok) I). cbn [fst snd] in F. destruct ok.
  - exfalso. apply N. apply in_map_iff. exists (p, true). split; [reflexivity|]. apply filter_In. split; [exact I|reflexivity].
  - exact F.
Qed.

Lemma kept_sub (v : list (prop * bool)) l : map fst v = l -> sub (map fst (filter snd v)) l.
Proof. intros <-. apply sub_map, sub_filter. Qed.

Record stage := { run : strategy -> list prop -> option (list prop); pass : list prop -> bool }.

Record lawful_last (s : stage) : Prop := {
  law_sub : forall l l', run s IgnoreByRef l = Some l' -> sub l' l;
  law_pass : forall l l', run s IgnoreByRef l = Some l' -> pass s l' = true;
  law_id : forall st l, pass s l = true -> run s st l = Some l;
  law_none : forall l l', run s IgnoreNone l = Some l' -> l' = l /\ pass s l = true
}.
(* closure under sublists is asked of every stage but the last, so that what later stages drop cannot make
   the result fail an earlier one *)
Record lawful (s : stage) : Prop := {
  law_last : lawful_last s;
  law_closed : forall l l', pass s l = true -> sub l' l -> pass s l' = true
}.

Fixpoint run_all (ss : list stage) (t : stage) (st : strategy) (l : list prop) : option (list prop) :=
  match ss with [] => run t st l | s :: r => obind (run s st l) (run_all r t st) end.

(* the committer's result is accepted, unchanged, by the receiver's strategy *)
Theorem strategies_agree ss t : Forall lawful ss -> lawful_last t -> forall l k,
  run_all ss t IgnoreByRef l = Some k -> sub k l /\ forall st, run_all ss t st k = Some k.
Proof.
  intros Ls Lt. induction Ls as [|s r [Ll Lc] _ IH]; intros l k; cbn [run_all].
  - intro E. split; [exact (law_sub t Lt l k E)|]. intro st. apply (law_id t Lt), (law_pass t Lt l k E).
  - destruct (run s IgnoreByRef l) as [l1|] eqn:E1; cbn [obind]; [|discriminate]. intro E.
    destruct (IH l1 k E) as [S K]. split; [exact (sub_trans _ _ _ S (law_sub s Ll l l1 E1))|].
    intro st. rewrite (law_id s Ll st k); [apply K|]. apply (Lc l1 k); [exact (law_pass s Ll l l1 E1)|exact S].
Qed.

(* a receiver never drops anything *)
Theorem receiver_keeps_all ss t : Forall lawful_last ss -> lawful_last t -> forall l k,
  run_all ss t IgnoreNone l = Some k -> k = l.
Proof.
  intros Ls Lt. induction Ls as [|s r L _ IH]; intros l k; cbn [run_all].
  - intro E. apply (law_none t Lt l k E).
  - destruct (run s IgnoreNone l) as [l1|] eqn:E1; cbn [obind]; [|discriminate].
    destruct (law_none s L l l1 E1) as [-> _]. apply IH.
Qed.

(* A stage that hands a list of verdicts, one for each proposal, to `retain` is lawful as soon as
   every sublist of what it keeps gets good verdicts only. *)
Lemma verdict_lawful_last (verd : list prop -> list (prop * bool)) ps :
  (forall l, map fst (verd l) = l) -> (forall l, ps l = forallb snd (verd l)) ->
  (forall l, ps (map fst (filter snd (verd l))) = true) ->
  lawful_last {| run := fun st l => retain st (verd l); pass := ps |}.
Proof.
  intros F P K. split; cbn [run pass].
  - intros l l' E. apply retain_byref in E. destruct E as [-> _]. apply kept_sub, F.
  - intros l l' E. apply retain_byref in E. destruct E as [-> _]. apply K.
  - intros st l Pl. rewrite P in Pl. rewrite (retain_all_ok st _ Pl), F. reflexivity.
  - intros l l' E. apply retain_none in E. destruct E as [-> Pl]. rewrite F, P. split; [reflexivity|exact Pl].
Qed.

Lemma verdict_lawful (verd : list prop -> list (prop * bool)) ps :
  (forall l, map fst (verd l) = l) -> (forall l, ps l = forallb snd (verd l)) ->
  (forall l a, sub a (map fst (filter snd (verd l))) -> ps a = true) ->
  lawful {| run := fun st l => retain st (verd l); pass := ps |}.
Proof.
  intros F P K. split; [apply verdict_lawful_last; [exact F|exact P|]|cbn [pass]].
  - intro l. apply (K l), sub_refl.
  - intros l l' Pl S. apply (K l). rewrite P in Pl. rewrite (filter_all _ _ Pl), F. exact S.
Qed.

Definition st_pw (v : prop -> bool) : stage := {| run := stage_pw v; pass := pass_pw v |}.

Lemma forallb_snd_pair (v : prop -> bool) l : forallb snd (map (fun p => (p, v p)) l) = forallb v l.
Proof. induction l as [|x r IH]; cbn [map forallb snd]; [reflexivity|rewrite IH; reflexivity]. Qed.
Lemma filter_snd_pair (v : prop -> bool) l : map fst (filter snd (map (fun p => (p, v p)) l)) = filter v l.
Proof. induction l as [|x r IH]; cbn [map filter snd]; [reflexivity|]. destruct (v x); cbn [map fst]; rewrite IH; reflexivity. Qed.

Lemma pw_lawful v : lawful (st_pw v).
Proof.
  apply (verdict_lawful (fun l => map (fun p => (p, v p)) l) (pass_pw v)).
  - intro l. rewrite map_map. apply map_id.
  - intro l. symmetry. apply forallb_snd_pair.
  - intros l a S. rewrite filter_snd_pair in S. exact (forallb_sub v _ _ S (forallb_filter v l)).
Qed.

Definition st_first key base : stage := {| run := stage_first key base; pass := pass_first key base |}.

Lemma map_fst_scan_first key base : forall l seen, map fst (scan_first key base seen l) = l.
Proof. induction l as [|p r IH]; intro seen; cbn [scan_first map fst]; [reflexivity|]. destruct (key p); cbn [map fst]; rewrite IH; reflexivity. Qed.

Lemma unseen_incl k seen seen' : incl seen' seen -> existsb (N.eqb k) seen = false -> existsb (N.eqb k) seen' = false.
Proof.
  intros I E. destruct (existsb (N.eqb k) seen') eqn:E'; [|reflexivity]. apply existsb_exists in E'. destruct E' as (x & Ix & Ex).
  rewrite <- E. symmetry. apply existsb_exists. exists x. split; [apply I; exact Ix|exact Ex].
Qed.

(* any sublist of what the scan keeps, scanned again (with fewer keys seen), is all fine *)
Lemma scan_first_kept key base : forall l a seen seen',
  sub a (map fst (filter snd (scan_first key base seen l))) -> incl seen' seen ->
  forallb snd (scan_first key base seen' a) = true.
Proof.
  induction l as [|p r IH]; intros a seen seen' S I; cbn [scan_first] in S.
  - inversion S. reflexivity.
  - destruct (key p) as [k|] eqn:Ek; cbn [filter snd] in S.
    + assert (I1 : incl seen' (k :: seen)) by (apply incl_tl; exact I).
      destruct (base p && negb (existsb (N.eqb k) seen)) eqn:V; [|exact (IH a _ _ S I1)].
      cbn [map fst] in S. inversion S as [|? ? ? S'|? a' ? S']; subst; [exact (IH a _ _ S' I1)|].
      apply andb_true_iff in V. destruct V as [Vb Vn]. apply negb_true_iff in Vn.
      cbn [scan_first]. rewrite Ek. cbn [forallb snd]. rewrite Vb, (unseen_incl k seen seen' I Vn). cbn [negb andb].
      apply (IH a' (k :: seen)); [exact S'|]. intros x [<-|Ix]; [left; reflexivity|right; apply I; exact Ix].
    + cbn [map fst] in S. inversion S as [|? ? ? S'|? a' ? S']; subst; [exact (IH a _ _ S' I)|].
      cbn [scan_first]. rewrite Ek. cbn [forallb snd andb]. exact (IH a' _ _ S' I).
Qed.

(* a first-wins scan whose keys seen at the start depend on the list, monotonically *)
Lemma scan_lawful key base (seen0 : list prop -> list N) :
  (forall a b, sub a b -> incl (seen0 a) (seen0 b)) ->
  lawful {| run := fun st l => retain st (scan_first key base (seen0 l) l);
            pass := fun l => forallb snd (scan_first key base (seen0 l) l) |}.
Proof.
  intro M. apply (verdict_lawful (fun l => scan_first key base (seen0 l) l)).
  - intro l. apply map_fst_scan_first.
  - reflexivity.
  - intros l a S. apply (scan_first_kept key base l a (seen0 l) _ S), M.
    apply (sub_trans _ _ _ S), kept_sub, map_fst_scan_first.
Qed.

Lemma first_lawful key base : lawful (st_first key base).
Proof. exact (scan_lawful key base (fun _ => []) (fun _ _ _ => incl_refl [])). Qed.

(* re-init travels alone *)
Definition st_reinit : stage := {| run := stage_reinit; pass := pass_reinit |}.

Lemma reinit_run st l l' : stage_reinit st l = Some l' ->
  (l' = l /\ pass_reinit l = true) \/
  (st = IgnoreByRef /\ (l' = filter (fun p => negb (is_reinit p)) l \/ l' = firstn 1 l)).
Proof.
  unfold stage_reinit, pass_reinit. destruct (filter is_reinit l); [intro E; left; split; congruence|].
  destruct (Nat.eqb (length l) 1); [intro E; left; split; congruence|].
  destruct (existsb _ _); [discriminate|]. destruct st; [|discriminate].
  destruct (Nat.ltb _ _); intro E; right; (split; [reflexivity|]).
  - left. congruence.
  - right. congruence.
Qed.

Lemma reinit_lawful : lawful st_reinit.
Proof.
  split; [split|]; cbn [run pass st_reinit].
  - intros l l' E. destruct (reinit_run _ l l' E) as [[-> _]|[_ [->| ->]]]; [apply sub_refl|apply sub_filter|].
    destruct l; cbn [firstn]; [constructor|apply sub_keep, sub_nil_l].
  - intros l l' E. destruct (reinit_run _ l l' E) as [[-> P]|[_ [->| ->]]]; [exact P| |]; unfold pass_reinit.
    + rewrite filter_negb_nil. reflexivity.
    + destruct l as [|x r]; cbn [firstn filter]; [reflexivity|]. destruct (is_reinit x); reflexivity.
  - intros st l. unfold stage_reinit, pass_reinit. destruct (filter is_reinit l); [reflexivity|]. intros ->. reflexivity.
  - intros l l' E. destruct (reinit_run _ l l' E) as [[-> P]|[D _]]; [split; [reflexivity|exact P]|discriminate D].
  - intros l l' P S. unfold pass_reinit in *. destruct (filter is_reinit l') as [|r0 rr] eqn:Er'; [reflexivity|].
    destruct (filter is_reinit l) as [|q0 qq] eqn:Er.
    + pose proof (sub_length _ _ (sub_filter_mono is_reinit _ _ S)) as Ln. rewrite Er, Er' in Ln. cbn [length] in Ln. lia.
    + apply Nat.eqb_eq in P. apply Nat.eqb_eq. pose proof (sub_length _ _ S) as Ln.
      destruct l'; [discriminate Er'|]. cbn [length] in *. lia.
Qed.

Definition st_rev (s : stage) : stage :=
  {| run := fun st l => match run s st (rev l) with Some r => Some (rev r) | None => None end;
     pass := fun l => pass s (rev l) |}.

Lemma rev_run s st l l' : run (st_rev s) st l = Some l' -> run s st (rev l) = Some (rev l').
Proof.
  cbn [run st_rev]. destruct (run s st (rev l)) as [r|]; [|discriminate].
  intro E. injection E as <-. rewrite rev_involutive. reflexivity.
Qed.

Lemma rev_lawful s : lawful s -> lawful (st_rev s).
Proof.
  intros [[Lsub Lpass Lid Lnone] Lclosed]. split; [split|].
  - intros l l' E. rewrite <- (rev_involutive l), <- (rev_involutive l'). apply sub_rev, Lsub, rev_run, E.
  - intros l l' E. exact (Lpass _ _ (rev_run _ _ _ _ E)).
  - intros st l P. cbn [run pass st_rev] in *. rewrite (Lid st _ P), rev_involutive. reflexivity.
  - intros l l' E. destruct (Lnone _ _ (rev_run _ _ _ _ E)) as [R P]. split; [|exact P].
    rewrite <- (rev_involutive l'), R. apply rev_involutive.
  - intros l l' P S. exact (Lclosed _ _ P (sub_rev _ _ S)).
Qed.

(* removes: the scan runs over the reversed list *)
Definition st_removes g : stage := {| run := stage_removes g; pass := pass_removes g |}.

Lemma removes_lawful g : lawful (st_removes g).
Proof. exact (rev_lawful _ (first_lawful rem_key (rem_base g))). Qed.

(* updates: keys already used = the leaves removed by the commit *)
Definition st_updates g : stage := {| run := stage_updates g; pass := pass_updates g |}.

Lemma removed_leaves_sub a b : sub a b -> incl (removed_leaves a) (removed_leaves b).
Proof. intros S k. apply sub_in. exact (sub_concat_map _ a b S). Qed.

Lemma updates_lawful g : lawful (st_updates g).
Proof. exact (scan_lawful upd_key (upd_base g) removed_leaves removed_leaves_sub). Qed.

(* adds: the last pass; identities present = those of the leaves that are not removed *)
Definition st_adds g : stage := {| run := stage_adds g; pass := pass_adds g |}.

(* the adds that the scan drops remove no leaf *)
Lemma removed_leaves_kept_adds seen l :
  removed_leaves (map fst (filter snd (scan_first add_key (fun _ => true) seen l))) = removed_leaves l.
Proof.
  unfold removed_leaves. revert seen. induction l as [|p r IH]; intro seen; cbn [scan_first]; [reflexivity|].
  destruct (add_key p) as [who|] eqn:Ek; cbn [filter snd].
  - assert (match p_body p with BRemove t => [t] | _ => [] end = []) as Ep
      by (unfold add_key in Ek; destruct (p_body p); [reflexivity|discriminate..]).
    destruct (true && negb (existsb (N.eqb who) seen)); cbn [map fst concat]; rewrite Ep, IH; reflexivity.
  - cbn [map fst concat]. rewrite IH. reflexivity.
Qed.

(* Dropping a remove puts an identity back among those present, so an add that passed may then fail:
   passing this stage is not closed under sublists.  It is the last stage, and what it drops are adds. *)
Lemma adds_lawful_last g : lawful_last (st_adds g).
Proof.
  apply (verdict_lawful_last (fun l => scan_first add_key (fun _ => true) (present g (removed_leaves l)) l)).
  - intro l. apply map_fst_scan_first.
  - reflexivity.
  - intro l. unfold pass_adds. rewrite removed_leaves_kept_adds. exact (scan_first_kept _ _ l _ _ _ (sub_refl _) (incl_refl _)).
Qed.

Definition stages (g : gctx) : list stage :=
  [st_pw kind_allowed; st_pw (not_update_of (committer g)); st_pw (not_remove_of (committer g));
   st_first psk_key psk_base; st_pw gce_ok; st_first gce_key (fun _ => true); st_pw reinit_ok; st_reinit;
   st_pw no_ext_init; st_pw custom_ok; st_pw node_ok; st_removes g; st_updates g].

Lemma pipeline_is_stages g st l : pipeline g st l = run_all (stages g) (st_adds g) st l.
Proof. reflexivity. Qed.

Lemma all_stages_lawful g : Forall lawful (stages g) /\ lawful_last (st_adds g).
Proof.
  split; [|apply adds_lawful_last]. unfold stages. repeat apply Forall_cons;
    [apply pw_lawful|apply pw_lawful|apply pw_lawful|apply first_lawful|apply pw_lawful|apply first_lawful|apply pw_lawful
    |apply reinit_lawful|apply pw_lawful|apply pw_lawful|apply pw_lawful|apply removes_lawful|apply updates_lawful|apply Forall_nil].
Qed.

(* C10: whatever the committer's filter keeps is accepted, unchanged, by every receiver *)
Theorem committer_and_receiver_agree g l k :
  pipeline g IgnoreByRef l = Some k -> pipeline g IgnoreNone k = Some k /\ sub k l.
Proof.
  rewrite !pipeline_is_stages. intro E. destruct (all_stages_lawful g) as [Ls La].
  destruct (strategies_agree _ _ Ls La l k E) as [S K]. split; [apply K|exact S].
Qed.

(* a receiver applies everything or nothing *)
Theorem receiver_applies_all_or_nothing g l k : pipeline g IgnoreNone l = Some k -> k = l.
Proof.
  rewrite pipeline_is_stages. destruct (all_stages_lawful g) as [Ls La].
  exact (receiver_keeps_all _ _ (Forall_impl _ law_last Ls) La l k).
Qed.
