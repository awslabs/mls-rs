(* The hypotheses of the tie between the parent-hash walk of the code and [decorate] discharged for the tree an
   update path has just been applied to: the filter flags computed BEFORE the path nodes were written are the
   emptiness of the copath resolutions AFTER it (the copath subtrees are not touched), and the unfiltered path
   nodes are parents.  Also: parent-hash validity only depends on the decoration pointwise. *)
From Coq Require Import NArith List Lia.
From MlsV Require Import Res TreeMathGen TreeMathProofs Tree TreeProofs Priv Decap DecapProofs PrivComplete ParentHash.
Import ListNotations.
Local Open Scope N_scope.

Lemma agree_refl_deco t d : forall k j, agree t t d d k j.
Proof. intros k j. apply (agree_outside_many t t d d []); [intros n _; split; reflexivity|intros l []]. Qed.

Theorem PHValid_pointwise PHF t d d' : (forall x, d' x = d x) -> PHValid PHF t d -> PHValid PHF t d'.
Proof. intro E. apply ph_same. intro n. split; [reflexivity|intros _; apply E]. Qed.

(* [agree] with any decorations says that two trees have the same nodes below (k, j); the resolution reads nothing else *)
Lemma reso_spec_agree t t' d d' : forall k j, agree t t' d d' k j -> reso_spec t' k j = reso_spec t k j.
Proof.
  induction k as [|k IH]; intros j A; cbn [agree reso_spec] in *.
  - destruct A as (G & _). rewrite G. reflexivity.
  - destruct A as (G & _ & A1 & A2). rewrite G, (IH _ A1), (IH _ A2). reflexivity.
Qed.

(* the update path writes inside the array of the full tree: the array may grow, the number of leaf slots does not *)
Lemma path_spec_bound n : forall k j d, k <= d -> j < 2 ^ (d - k) -> N.of_nat n = d - k ->
  Forall (fun p => p < 2 ^ (d + 1) - 1) (map CopathNode_path (path_spec n k j)).
Proof.
  induction n as [|n IH]; intros k j d Hk Hj Hn; cbn [path_spec map]; constructor.
  - cbn [CopathNode_path]. pose proof (node_bound d (k + 1) (j / 2) ltac:(lia) ltac:(apply half_lt; lia)) as B.
    pose proof (pow2_pos (k + 1)). lia.
  - apply IH; [lia|apply half_lt; lia|lia].
Qed.

Lemma update_path_length t1 sndr id t2 : small t1 -> apply_update_path t1 sndr id = TOk t2 ->
  exists dd, total_leaf_count (set t1 (2 * sndr) (Some (Leaf id))) = 2 ^ dd /\ tlen t1 <= tlen t2 <= 2 ^ (dd + 1) - 1.
Proof.
  intros Sm Ap. apply apply_update_path_ok in Ap. destruct Ap as ([x G] & path & cp & P & _ & A).
  apply get_some_lt in G. set (t1' := set t1 (2 * sndr) (Some (Leaf id))) in *.
  assert (L1 : tlen t1' = tlen t1) by apply set_length.
  pose proof (small_length _ _ L1 Sm) as Sm'.
  destruct (path_nodes_spec t1' sndr Sm' ltac:(lia)) as (dd & Et & _ & Hl & Pn & _).
  destruct (total_leaf_count_pow t1' dd Sm' Et) as (_ & Hn & _).
  exists dd. split; [exact Et|]. rewrite <- L1.
  refine (apply_path_nodes_length t1' (2 ^ (dd + 1) - 1) path cp t1' t2 _ _ A).
  - rewrite Pn in P. injection P as <-. apply (path_spec_bound (N.to_nat dd) 0 sndr dd); [lia|rewrite N.sub_0_r; exact Hl|lia].
  - pose proof (N.mul_succ_div_gt (tlen t1') 2 ltac:(lia)). rewrite N.pow_add_r, N.pow_1_r. lia.
Qed.

Theorem update_path_keeps_the_leaf_count t1 sndr id t2 :
  small t1 -> apply_update_path t1 sndr id = TOk t2 ->
  small t2 /\ total_leaf_count t2 = total_leaf_count (set t1 (2 * sndr) (Some (Leaf id))).
Proof.
  intros Sm Ap. destruct (update_path_length t1 sndr id t2 Sm Ap) as (dd & Et & Lo & Up).
  set (t1' := set t1 (2 * sndr) (Some (Leaf id))) in *.
  assert (L1 : tlen t1' = tlen t1) by apply set_length.
  pose proof (small_length _ _ L1 Sm) as Sm'.
  destruct (total_leaf_count_pow t1' dd Sm' Et) as (_ & _ & Hlow).
  assert (Dm : tlen t1' / 2 <= tlen t2 / 2) by (apply N.div_le_mono; lia).
  pose proof (N.mul_div_le (tlen t1') 2 ltac:(lia)) as Dl.
  pose proof (N.mul_div_le (tlen t2) 2 ltac:(lia)) as Dl2.
  (* fewer than 2^25 nodes before, so dd <= 24, and at most 2^(dd+1) - 1 nodes after *)
  assert (D24 : dd <= 24).
  { destruct Hlow as [->|Hlow]; [lia|]. unfold small in Sm'. change (2 ^ 25) with 33554432 in Sm'.
    assert (X : 2 ^ (dd - 1) < 2 ^ 24) by (change (2 ^ 24) with 16777216; lia).
    apply N.pow_lt_mono_r_iff in X; lia. }
  assert (Sm2 : small t2) by (unfold small; pose proof (pow2_le_mono (dd + 1) 25 ltac:(lia)); lia).
  split; [exact Sm2|]. rewrite Et. apply (total_leaf_count_unique t2 dd Sm2).
  - rewrite N.pow_add_r, N.pow_1_r in Up. lia.
  - destruct Hlow as [->|Hlow]; [left; reflexivity|right; lia].
Qed.

Theorem flags_after_update_path t1 sndr id t2 flt :
  small t1 -> apply_update_path t1 sndr id = TOk t2 ->
  filtered (set t1 (2 * sndr) (Some (Leaf id))) sndr = Ok flt ->
  forall i b, nth_error flt i = Some b ->
  resolution_empty t2 (node (N.of_nat i) (sib (sndr / 2 ^ N.of_nat i))) = Ok b.
Proof.
  intros Sm Ap Fl i b Hb.
  destruct (update_path_keeps_the_leaf_count t1 sndr id t2 Sm Ap) as [Sm2 Lc].
  destruct (update_path_effect t1 sndr id t2 flt Sm Ap Fl) as (_ & Ls & _).
  set (t1' := set t1 (2 * sndr) (Some (Leaf id))) in *.
  assert (L1 : tlen t1' = tlen t1) by apply set_length.
  pose proof (small_set t1 (2 * sndr) (Some (Leaf id)) Sm : small t1') as Sm'.
  (* the flag is the emptiness of the resolution in t1' ... *)
  destruct (filtered_flags t1' sndr flt Sm' ltac:(lia) Fl) as (d & Et & Lf & Flag).
  destruct (Flag i b Hb) as (_ & _ & R1).
  assert (Li : (i < N.to_nat d)%nat) by (rewrite <- Lf; apply nth_error_Some; congruence).
  (* ... both trees have the same depth, and the copath subtree is the same in t2 *)
  unfold resolution_empty in *. rewrite (resolution_of_level t1' d i _ Sm' Et Li) in R1.
  rewrite (resolution_of_level t2 d i _ Sm2 ltac:(rewrite Lc; exact Et) Li).
  rewrite (reso_spec_agree t1' t2 (fun _ => (0, 0)) (fun _ => (0, 0)) i _); [exact R1|].
  apply (agree_outside t1' t2 _ _ sndr); [|apply sib_neq].
  intros n Nn Na. split; [|reflexivity]. exact (update_path_get t1 sndr id t2 Sm Ap n Na).
Qed.

Lemma update_path_depth t1 sndr id t2 flt : small t1 -> apply_update_path t1 sndr id = TOk t2 ->
  filtered (set t1 (2 * sndr) (Some (Leaf id))) sndr = Ok flt ->
  total_leaf_count t2 = 2 ^ N.of_nat (length flt) /\ sndr < 2 ^ N.of_nat (length flt) /\
  (forall i, nth_error flt i = Some false -> get t2 (lvl_node (N.of_nat (S i)) sndr) = Some (Par [])).
Proof.
  intros Sm Ap Fl. destruct (update_path_keeps_the_leaf_count t1 sndr id t2 Sm Ap) as [_ Lc].
  destruct (update_path_effect t1 sndr id t2 flt Sm Ap Fl) as (Et & Ls & _ & On & _).
  split; [rewrite Lc; exact Et|]. split; [|exact On].
  apply (leaf_below_count (set t1 (2 * sndr) (Some (Leaf id)))); [apply small_set; exact Sm|exact Et|].
  rewrite set_length. lia.
Qed.
