(* The code-shaped key schedule / PSK chain / secret tree / ratchet (Model/KeyScheduleCode.v)
   computes the RFC 9420 values (Model/KeyScheduleRFC.v), for every hash / KDF. *)
From Coq Require Import NArith List Lia.
From MlsV Require Import Res Hkdf KeyScheduleRFC KeyScheduleCode TreeMathProofs.
Import ListNotations.
Local Open Scope N_scope.

Section CodeIsRFC.
  Variable H : hash_alg.
  (* the length field of KDFLabel is a u16; key_schedule.rs writes `len as u16` (label_bytes truncates likewise) *)
  Hypothesis Hsmall : N.of_nat (h_len H) < 65536.

  Lemma label_ok len label ctx : N.of_nat len < 65536 -> label_bytes len label ctx = kdf_label len label ctx.
  Proof. intro L. unfold label_bytes, kdf_label. rewrite N.mod_small by assumption. reflexivity. Qed.

  Lemma ewl_some secret label ctx len : N.of_nat len < 65536 ->
    kdf_expand_with_label H secret label ctx (Some len) = expand_with_label H secret label ctx len.
  Proof. intro L. unfold kdf_expand_with_label, expand_with_label. rewrite label_ok by assumption. reflexivity. Qed.

  Lemma ewl_none secret label ctx :
    kdf_expand_with_label H secret label ctx None = expand_with_label H secret label ctx (h_len H).
  Proof. unfold kdf_expand_with_label, expand_with_label. rewrite label_ok by assumption. reflexivity. Qed.

  Lemma derive_ok secret label : kdf_derive_secret H secret label = derive_secret H secret label.
  Proof. unfold kdf_derive_secret, derive_secret. apply ewl_none. Qed.

  Definition rfc_epoch (init commit ctx psk : list N) : list N :=
    epoch_secret H (joiner_secret H init commit ctx) psk ctx.

  Lemma from_joiner_ok joiner ctx psk :
    from_joiner H joiner ctx psk = from_epoch_secret H (epoch_secret H joiner psk ctx).
  Proof. unfold from_joiner. cbv zeta. rewrite ewl_none. reflexivity. Qed.

  Lemma from_key_schedule_ok init commit ctx psk :
    from_key_schedule H init commit ctx psk =
    let r := from_epoch_secret H (rfc_epoch init commit ctx psk) in
    {| d_ks := d_ks r; d_confirm := d_confirm r; d_joiner := joiner_secret H init commit ctx; d_epoch := d_epoch r |}.
  Proof. unfold from_key_schedule. cbv zeta. rewrite ewl_none, from_joiner_ok. reflexivity. Qed.

  Theorem key_schedule_ok init commit ctx psk :
    let r := from_key_schedule H init commit ctx psk in
    let e := rfc_epoch init commit ctx psk in
    d_joiner r = joiner_secret H init commit ctx
    /\ es_resumption (d_epoch r) = derive_secret H e L_resumption
    /\ es_sender_data (d_epoch r) = derive_secret H e L_sender_data
    /\ es_encryption (d_epoch r) = derive_secret H e L_encryption
    /\ ks_exporter (d_ks r) = derive_secret H e L_exporter
    /\ ks_authentication (d_ks r) = derive_secret H e L_authentication
    /\ ks_external (d_ks r) = derive_secret H e L_external
    /\ ks_membership (d_ks r) = derive_secret H e L_membership
    /\ ks_init (d_ks r) = derive_secret H e L_init
    /\ d_confirm r = derive_secret H e L_confirm.
  Proof.
    cbv zeta. rewrite from_key_schedule_ok.
    cbn [from_epoch_secret d_joiner d_epoch d_ks d_confirm
         es_resumption es_sender_data es_encryption ks_exporter ks_authentication ks_external ks_membership ks_init].
    split; [reflexivity|]. repeat split; apply derive_ok.
  Qed.

  Theorem welcome_secret_ok joiner psk :
    get_welcome_secret H joiner psk = welcome_secret H joiner psk.
  Proof. unfold get_welcome_secret, welcome_secret, member_secret, get_pre_epoch_secret. apply derive_ok. Qed.

  Theorem exporter_ok exporter label context len : N.of_nat len < 65536 ->
    export_secret H exporter label context len = mls_exporter H exporter label context len.
  Proof. intro L. unfold export_secret, mls_exporter. rewrite derive_ok, ewl_some by assumption. reflexivity. Qed.

  Lemma psk_loop_ok input : forall index len acc,
    psk_loop H input index len acc = psk_chain H input index len acc.
  Proof.
    induction input as [|[id psk] r IH]; intros; cbn [psk_loop psk_chain]; [reflexivity|].
    rewrite ewl_none. unfold psk_label. apply IH.
  Qed.

  Theorem psk_secret_ok input : psk_calculate H input = psk_secret H input.
  Proof. unfold psk_calculate, psk_secret. apply psk_loop_ok. Qed.

  Section SecretTree.
    Variables (d : N) (enc : list N).
    Hypothesis Hd : d <= 30.

    (* RFC secret of the j-th node of level k *)
    Definition rfc_node_secret (k j : N) : list N := tree_secret_down H (N.to_nat (d - k)) j enc.

    Definition good (m : tree_state) : Prop :=
      forall x s, In (x, TSecret s) m ->
        exists k j, x = node k j /\ k <= d /\ j < 2 ^ (d - k) /\ s = rfc_node_secret k j.

    Lemma take_node_sub m y : incl (snd (take_node m y)) m.
    Proof.
      induction m as [|[z t] r IH]; cbn [take_node]; [apply incl_refl|].
      destruct (z =? y); [apply incl_tl, incl_refl|].
      destruct (take_node r y) as [o r']. apply incl_cons; [left; reflexivity|apply incl_tl, IH].
    Qed.

    Lemma take_node_in m y n : forall m', take_node m y = (Some n, m') -> In (y, n) m.
    Proof.
      induction m as [|[z t] r IH]; intro m'; cbn [take_node]; [discriminate|].
      destruct (N.eqb_spec z y) as [->|_].
      - intro E. injection E as -> _. left. reflexivity.
      - destruct (take_node r y) as [o r']. intro E. injection E as -> _. right. exact (IH _ eq_refl).
    Qed.

    Lemma good_take m y o m' : take_node m y = (o, m') -> good m -> good m'.
    Proof. intros E G x s I. apply G, (take_node_sub m y). rewrite E. exact I. Qed.

    Lemma good_set m k j : good m -> k <= d -> j < 2 ^ (d - k) ->
      good (set_node m (node k j) (TSecret (rfc_node_secret k j))).
    Proof.
      intros G Hk Hj y s' [E|I].
      - injection E as <- <-. exists k, j. repeat split; assumption.
      - exact (G _ _ (take_node_sub _ _ _ I)).
    Qed.

    Lemma tree_secret_down_S s j sec :
      tree_secret_down H (S s) j sec =
      tree_secret_down H s j (expand_with_label H sec L_tree (if N.testbit j (N.of_nat s) then C_right else C_left) (h_len H)).
    Proof. reflexivity. Qed.

    (* the walk reads the digits of j from the top, so the last digit decides the last step *)
    Lemma down_child s : forall j (b : bool) sec,
      tree_secret_down H (S s) (2 * j + N.b2n b) sec
      = expand_with_label H (tree_secret_down H s j sec) L_tree (if b then C_right else C_left) (h_len H).
    Proof.
      induction s as [|s IH]; intros j b sec.
      - cbn [tree_secret_down]. change (N.of_nat 0) with 0. rewrite N.testbit_0_r. reflexivity.
      - rewrite (tree_secret_down_S (S s)), IH, (tree_secret_down_S s j), Nnat.Nat2N.inj_succ, N.testbit_succ_r. reflexivity.
    Qed.

    Lemma child_secrets k j : k < d ->
      rfc_node_secret k (2 * j) = expand_with_label H (rfc_node_secret (k + 1) j) L_tree C_left (h_len H) /\
      rfc_node_secret k (2 * j + 1) = expand_with_label H (rfc_node_secret (k + 1) j) L_tree C_right (h_len H).
    Proof.
      intro Hk. unfold rfc_node_secret. replace (N.to_nat (d - k)) with (S (N.to_nat (d - (k + 1)))) by lia.
      split; [rewrite <- (N.add_0_r (2 * j)); apply (down_child _ j false)|apply (down_child _ j true)].
    Qed.

    (* a node that holds a secret is a node (k, j) of the tree by the invariant itself; were it a leaf the code
       would panic, otherwise its children get the RFC secrets *)
    Lemma good_consume m x m' : good m -> consume_node H m x = Ok m' -> good m'.
    Proof.
      intro G. unfold consume_node.
      destruct (take_node m x) as [[[s|]|] m0] eqn:E;
        try (intro Hc; injection Hc as <-; exact (good_take _ _ _ _ E G)).
      destruct (G _ _ (take_node_in _ _ _ _ E)) as (k' & j & -> & Hk & Hj & ->).
      destruct (N.zero_or_succ k') as [->|[k ->]]; [rewrite left_leaf_panics; discriminate|].
      rewrite <- N.add_1_r in *. rewrite left_ok, right_ok by lia. cbn [bind ret]. intro Hc. injection Hc as <-.
      rewrite !ewl_none. destruct (child_secrets k j ltac:(lia)) as [CL CR].
      assert (Hj2 : 2 * j + 1 < 2 ^ (d - k)).
      { replace (d - k) with (d - (k + 1) + 1) by lia. rewrite N.pow_add_r, N.pow_1_r. lia. }
      rewrite <- CL, <- CR. apply good_set; [|lia|exact Hj2]. apply good_set; [|lia|lia].
      exact (good_take _ _ _ _ E G).
    Qed.

    Lemma good_consume_path path : forall m m', good m -> consume_path H m path = Ok m' -> good m'.
    Proof.
      induction path as [|x r IH]; intros m m' G; cbn [consume_path].
      - intro E. injection E as <-. exact G.
      - destruct (consume_node H m x) as [m1| |] eqn:E; cbn [bind]; try discriminate.
        apply IH. exact (good_consume _ _ _ G E).
    Qed.

    Lemma good_new m : tree_new (2 ^ d) enc = Ok m -> good m.
    Proof using Hsmall Hd. (* Hsmall is not used: stated under the same premises as take_leaf_ok *)
      unfold tree_new. rewrite root_ok by lia. cbn [bind ret]. intro E. injection E as <-.
      intros x s [I|[]]. injection I as <- <-. exists d, 0.
      split; [reflexivity|]. split; [apply N.le_refl|]. split; [apply pow2_pos|].
      unfold rfc_node_secret. rewrite N.sub_diag. reflexivity.
    Qed.

    Lemma good_take_leaf m l o m' : good m -> take_node m (node 0 l) = (o, m') ->
      good m' /\ (forall s, o = Some (TSecret s) -> s = leaf_secret H (N.to_nat d) l enc).
    Proof.
      intros G E. split; [exact (good_take _ _ _ _ E G)|]. intros s ->.
      destruct (G _ _ (take_node_in _ _ _ _ E)) as (k & j & En & _ & _ & ->). apply node_inj in En. destruct En as [<- <-].
      unfold rfc_node_secret. rewrite N.sub_0_r. reflexivity.
    Qed.

    (* every leaf secret handed out is the RFC leaf secret, whatever was consumed before *)
    Theorem take_leaf_ok m l o m' :
      good m -> l < 2 ^ d -> take_leaf H m (node 0 l) (2 ^ d) = Ok (o, m') ->
      good m' /\ (forall s, o = Some (TSecret s) -> s = leaf_secret H (N.to_nat d) l enc).
    Proof.
      intros G Hl. unfold take_leaf. destruct (take_node m (node 0 l)) as [[n|] m0] eqn:E.
      - intro R. injection R as <- <-. exact (good_take_leaf _ _ _ _ G E).
      - rewrite direct_copath_ok by (try lia; rewrite N.sub_0_r; assumption). cbn [bind].
        destruct (consume_path H m _) as [m1| |] eqn:C; cbn [bind ret]; try discriminate.
        intro R. injection R as R. exact (good_take_leaf _ _ _ _ (good_consume_path _ _ _ G C) R).
    Qed.
  End SecretTree.

  Fixpoint iter_next (nk nn : nat) (n : nat) (r : ratchet) : res ratchet :=
    match n with
    | O => ret r
    | S n' => bind (next_message_key H nk nn r) (fun '(_, r') => iter_next nk nn n' r')
    end.

  Lemma next_message_key_ok nk nn r :
    N.of_nat nk < 65536 -> N.of_nat nn < 65536 -> r_gen r + 1 < 2 ^ 32 ->
    next_message_key H nk nn r =
    Ok ((r_gen r, (ratchet_nonce H (r_secret r) (r_gen r) nn, ratchet_key H (r_secret r) (r_gen r) nk)),
        {| r_secret := expand_with_label H (r_secret r) L_secret (u32be (r_gen r)) (h_len H);
           r_gen := r_gen r + 1; r_history := r_history r |}).
  Proof.
    intros Lk Ln Hg. unfold next_message_key. rewrite u32_add_ok, !ewl_some by assumption. reflexivity.
  Qed.

  Lemma ratchet_advance nk nn n : N.of_nat nk < 65536 -> N.of_nat nn < 65536 -> forall r r',
    r_gen r + N.of_nat n < 2 ^ 32 ->
    iter_next nk nn n r = Ok r' ->
    r_secret r' = ratchet_secret_at H n (r_gen r) (r_secret r) /\ r_gen r' = r_gen r + N.of_nat n.
  Proof.
    intros Lk Ln. induction n as [|n IH]; intros r r' Hb; cbn [iter_next ratchet_secret_at].
    - intro E. injection E as <-. split; [reflexivity|lia].
    - rewrite next_message_key_ok by (assumption || lia). cbn [bind].
      intro E. apply IH in E; cbn [r_gen r_secret] in *; [|lia].
      destruct E as [E1 E2]. split; [exact E1|lia].
  Qed.

  (* the key handed out for generation g is the RFC key of generation g *)
  Theorem ratchet_key_ok nk nn leaf_sec hs g r k r' :
    N.of_nat nk < 65536 -> N.of_nat nn < 65536 -> N.of_nat g + 1 < 2 ^ 32 ->
    iter_next nk nn g (ratchet_new H leaf_sec hs) = Ok r ->
    next_message_key H nk nn r = Ok (k, r') ->
    let s := ratchet_secret_at H g 0 (ratchet_init H leaf_sec hs) in
    k = (N.of_nat g, (ratchet_nonce H s (N.of_nat g) nn, ratchet_key H s (N.of_nat g) nk)).
  Proof.
    intros Lk Ln Hg It Nx. apply ratchet_advance in It; cbn [ratchet_new r_gen r_secret] in *; [|assumption|assumption|lia].
    destruct It as [Es Eg]. rewrite next_message_key_ok in Nx by (assumption || lia).
    injection Nx as <- _. rewrite Es, Eg. unfold ratchet_init. rewrite ewl_none. reflexivity.
  Qed.
End CodeIsRFC.
