(* Completeness of the private state: for every non-blank ancestor a member either holds the
   private key or is listed there as an unmerged leaf.  Together with PrivOK (the keys held are
   the right ones) this is what makes decap succeed (DecapProofs.decap_select_complete_res).
   Preserved by the proposals of a commit, by the path for receivers and the committer, and
   established for joiners.
   Also here, and used by later files: [ParMono] through the proposals, the update path node by node
   ([update_path_effect], [update_path_get]), the filter flags ([filtered_flags]), [UnmergedAtAll]. *)
From Coq Require Import NArith Arith List Lia.
From MlsV Require Import Res TreeMathProofs Tree TreeProofs TreeWF Priv PrivProofs Decap DecapProofs TreeWF5.
Import ListNotations.
Local Open Scope N_scope.

Definition Complete (t : tree) (me : N) (pr : priv) : Prop :=
  forall k um, (1 <= k)%nat -> get t (lvl_node (N.of_nat k) me) = Some (Par um) ->
    (exists key, nth_error pr k = Some (Some key)) \/ In me um.

(* parents are never created and unmerged lists only grow *)
Definition ParMono (t t' : tree) : Prop :=
  forall p um', get t' p = Some (Par um') -> exists um, get t p = Some (Par um) /\ incl um um'.

Lemma ParMono_refl t : ParMono t t.
Proof. intros p um G. exists um. split; [exact G|apply incl_refl]. Qed.
Lemma ParMono_trans a b c : ParMono a b -> ParMono b c -> ParMono a c.
Proof.
  intros A B p um G. destruct (B p um G) as (u1 & G1 & I1). destruct (A p u1 G1) as (u0 & G0 & I0).
  exists u0. split; [exact G0|]. eapply incl_tran; eassumption.
Qed.

Lemma not_par_mono t t' p : ParMono t t' -> (forall um, get t p <> Some (Par um)) -> forall um, get t' p <> Some (Par um).
Proof. intros M H um G. destruct (M p um G) as (u & Gu & _). exact (H u Gu). Qed.

Lemma complete_set_leaf t me pr l v : Complete t me pr -> Complete (set t (2 * l) v) me pr.
Proof.
  intros C k um Hk G. apply (C k um Hk). rewrite get_set_other in G; [exact G|].
  intro E. exact (ancestor_not_leaf _ _ l (lvl_node_ancestor k me Hk) (eq_sym E)).
Qed.

Lemma path_position t me path k n : small t -> 2 * me < tlen t -> path_nodes t me = Ok path ->
  (1 <= k)%nat -> get t (lvl_node (N.of_nat k) me) = Some n -> nth_error path (k - 1) = Some (lvl_node (N.of_nat k) me).
Proof.
  intros Sm L P Hk G.
  pose proof (path_nodes_complete t me path _ Sm L P (lvl_node_ancestor k me Hk) (get_some_lt _ _ _ G)) as I.
  apply In_nth_error in I. destruct I as [i Hi].
  pose proof (path_nodes_levels t me path Sm ltac:(lia) P i _ Hi) as E.
  apply lvl_node_inj in E. destruct E as [E _]. assert (i = (k - 1)%nat) by lia. subst i. exact Hi.
Qed.

Theorem complete_provisional t t1 me pr pr1 :
  Complete t me pr -> ParMono t t1 -> small t1 -> 2 * me < tlen t1 ->
  provisional_priv t1 me pr None = Ok pr1 -> Complete t1 me pr1.
Proof.
  intros C M Sm L E. unfold provisional_priv in E. apply bind_ok in E. destruct E as (path & Ep & E).
  injection E as <-.
  intros k um1 Hk G1. destruct (M _ _ G1) as (um0 & G0 & I0).
  destruct (C k um0 Hk G0) as [[key Hkey]|Hin]; [left|right; apply I0; exact Hin].
  exists key. rewrite nth_error_mapi.
  pose proof (path_position t1 me path k _ Sm L Ep Hk G1) as Hp.
  assert (Lk : (k < length path + 1)%nat).
  { assert ((k - 1 < length path)%nat) by (apply nth_error_Some; congruence). lia. }
  rewrite nth_error_resize. destruct (Nat.ltb_spec k (length path + 1)); [|lia]. rewrite Hkey. cbn [option_map].
  destruct k as [|i]; [lia|]. replace (S i - 1)%nat with i in Hp by lia. rewrite Hp, G1. reflexivity.
Qed.

(* own update: the whole direct path is blank afterwards, nothing to hold *)
Theorem complete_blank_path t me pr :
  (forall k, (1 <= k)%nat -> get t (lvl_node (N.of_nat k) me) = None) -> Complete t me pr.
Proof. intros B k um Hk G. rewrite B in G by exact Hk. discriminate. Qed.

(* below the level L of the common ancestor with the committer the member keeps what it had, or is unmerged;
   from L on a non-blank ancestor is an unfiltered node of the path, and for those the member has got a key *)
Lemma complete_by_levels t me pr L flt :
  (forall i um, N.of_nat (S i) < L -> get t (lvl_node (N.of_nat (S i)) me) = Some (Par um) ->
     (exists key, nth_error pr (S i) = Some (Some key)) \/ In me um) ->
  (forall i um, L <= N.of_nat (S i) -> get t (lvl_node (N.of_nat (S i)) me) = Some (Par um) -> nth_error flt i = Some false) ->
  (forall i, L <= N.of_nat (S i) -> nth_error flt i = Some false -> exists key, nth_error pr (S i) = Some (Some key)) ->
  Complete t me pr.
Proof.
  intros Below Above Written k um Hk G. destruct k as [|i]; [lia|].
  destruct (N.ltb_spec (N.of_nat (S i)) L) as [Lt|Ge]; [exact (Below i um Lt G)|left].
  exact (Written i Ge (Above i um Ge G)).
Qed.

Lemma ParMono_same t0 t t' : (forall p um, get t' p = Some (Par um) -> get t p = Some (Par um)) -> ParMono t0 t -> ParMono t0 t'.
Proof. intros H M p um G. exact (M p um (H p um G)). Qed.

Lemma ParMono_set_leaf t0 t i id : ParMono t0 t -> ParMono t0 (set t i (Some (Leaf id))).
Proof.
  apply ParMono_same. intros p um G.
  destruct (N.eq_dec p i) as [->|Ne]; [exfalso|rewrite get_set_other in G by congruence; exact G].
  apply get_set_hit in G. discriminate.
Qed.

Lemma ParMono_blank_nodes t0 ns t : ParMono t0 t -> ParMono t0 (blank_nodes t ns).
Proof.
  apply ParMono_same. intros p um G. rewrite get_blank_nodes in G.
  destruct (existsb (N.eqb p) ns); [discriminate|exact G].
Qed.

Lemma ParMono_trim t : ParMono t (trim t).
Proof. apply (ParMono_same t t); [|apply ParMono_refl]. intros p um G. rewrite get_trim in G. exact G. Qed.

Lemma ParMono_blank_direct_path t0 t l t' : ParMono t0 t -> blank_direct_path t l = TOk t' -> ParMono t0 t'.
Proof. intros M D. apply blank_direct_path_ok in D. destruct D as (p & _ & ->). apply ParMono_blank_nodes. exact M. Qed.

Lemma ParMono_update_unmerged path t leaf t' : update_unmerged t leaf path = TOk t' -> ParMono t t'.
Proof.
  intros U q uq Gq. pose proof (proj2 (update_unmerged_get _ _ _ _ U q)) as B.
  destruct (get t q) as [[y|um]|]; [congruence| |congruence]. destruct B as (um' & G' & M). exists um. split; [reflexivity|].
  assert (um' = uq) by congruence. subst. intros y Iy. apply M. left. exact Iy.
Qed.

Lemma ParMono_add_leaf t0 t id start t' idx : ParMono t0 t -> add_leaf t id start = TOk (t', idx) -> ParMono t0 t'.
Proof.
  intros M A. apply add_leaf_ok in A. destruct A as (_ & _ & path & _ & U).
  eapply ParMono_trans; [|eapply ParMono_update_unmerged; exact U].
  revert M. apply ParMono_same. intros p um G.
  destruct (N.eq_dec p (2 * idx)) as [->|Ne]; [exfalso|rewrite insert_leaf_get in G by exact Ne; exact G].
  destruct (insert_leaf_set t idx (Leaf id)) as (ti & E & _). rewrite E in G.
  apply get_set_hit in G. discriminate.
Qed.

Theorem ParMono_batch_edit t removes updates adds t' added : batch_edit t removes updates adds = TOk (t', added) -> ParMono t t'.
Proof.
  intro B. refine (proj1 (batch_edit_preserves_upto (fun _ => True) (fun _ _ _ _ => I) (ParMono t) _ _ _ _ _
                            t removes updates adds t' added (ParMono_refl t) I B)).
  - intros t0 l t1 t2 M _ Bl D. destruct (remove_ok _ _ _ _ Bl D) as (x & path & _ & _ & ->). exact (ParMono_blank_nodes t (2 * l :: path) t0 M).
  - intros t0 i x id M _. apply ParMono_set_leaf. exact M.
  - intros t0 l t1 M _ _. apply ParMono_blank_direct_path. exact M.
  - intros t0 id start t1 idx M _ _. apply ParMono_add_leaf. exact M.
  - intros t0 M. exact (ParMono_trans _ _ _ M (ParMono_trim t0)).
Qed.

(* without the size conditions of batch_edit_preserves_upto: its phase lemmas for the blanked paths and the adds
   ask for leaves and a start index inside the tree *)
Lemma ParMono_apply_updates us t t' : apply_updates t us = TOk t' -> ParMono t t'.
Proof.
  intro E. exact (proj1 (apply_updates_preserves (ParMono t)
    (fun t0 i x id M _ => ParMono_set_leaf t t0 (2 * i) id M) us t t' (ParMono_refl t) E)).
Qed.

Lemma ParMono_blank_paths ls : forall t t', blank_paths t ls = TOk t' -> ParMono t t'.
Proof.
  induction ls as [|l rest IH]; intros t t' E; [injection E as <-; apply ParMono_refl|].
  destruct (blank_paths_cons _ _ _ _ E) as (t1 & D & _ & E').
  exact (ParMono_trans _ _ _ (ParMono_blank_direct_path t t l t1 (ParMono_refl t) D) (IH _ _ E')).
Qed.

Lemma ParMono_apply_adds ids : forall t start acc t' added, apply_adds t ids start acc = TOk (t', added) -> ParMono t t'.
Proof.
  induction ids as [|id rest IH]; intros t start acc t' added E; [inversion E; subst; apply ParMono_refl|].
  destruct (apply_adds_cons _ _ _ _ _ _ _ E) as (t1 & idx & A & E').
  exact (ParMono_trans _ _ _ (ParMono_add_leaf t t id start t1 idx (ParMono_refl t) A) (IH _ _ _ _ _ E')).
Qed.

Lemma filtered_of_ok t c r flt : filtered_of t (c :: r) = Ok flt ->
  exists e rest, resolution_empty t c = Ok e /\ filtered_of t r = Ok rest /\ flt = e :: rest.
Proof.
  cbn [filtered_of]. intro E. apply bind_ok in E. destruct E as (e & Re & E). apply bind_ok in E. destruct E as (rest & F & E).
  exists e, rest. repeat split; [exact Re|exact F|]. injection E as <-. reflexivity.
Qed.

Lemma filtered_of_length t : forall copath flt, filtered_of t copath = Ok flt -> length flt = length copath.
Proof.
  induction copath as [|c r IH]; intros flt E; [injection E as <-; reflexivity|].
  apply filtered_of_ok in E. destruct E as (e & rest & _ & F & ->). cbn [length]. rewrite (IH rest F). reflexivity.
Qed.

Lemma filtered_of_nth t : forall cp flt i c b, filtered_of t cp = Ok flt ->
  nth_error cp i = Some c -> nth_error flt i = Some b -> resolution_empty t c = Ok b.
Proof.
  induction cp as [|c0 r IH]; intros flt i c b E; [destruct i; discriminate|].
  apply filtered_of_ok in E. destruct E as (e & rest & Re & F & ->).
  destruct i as [|i]; cbn [nth_error]; [intros; congruence|]. exact (IH rest i c b F).
Qed.

(* apply_path_nodes writes nothing outside the path, and at position i an empty parent unless flag i is set *)
Lemma apply_path_nodes_off orig x : forall path copath t t', ~ In x path ->
  apply_path_nodes t path copath orig = Ok t' -> get t' x = get t x.
Proof.
  induction path as [|p pr IH]; intros copath t t' Nx A; [|destruct copath as [|c cr]]; try (injection A as <-; reflexivity).
  cbn [apply_path_nodes] in A. apply bind_ok in A. destruct A as (e & _ & A).
  rewrite (IH _ _ _ (fun I => Nx (or_intror I)) A). destruct e; [reflexivity|].
  rewrite get_set_padded. destruct (N.eqb_spec x p) as [->|]; [destruct Nx; left|]; reflexivity.
Qed.

Lemma apply_path_nodes_at orig : forall path copath t t' flt, NoDup path ->
  filtered_of orig copath = Ok flt -> apply_path_nodes t path copath orig = Ok t' ->
  forall i x b, nth_error path i = Some x -> nth_error flt i = Some b -> get t' x = if b then get t x else Some (Par []).
Proof.
  induction path as [|p pr IH]; intros copath t t' flt Nd F A i x b Hp Hf; [destruct i; discriminate|].
  destruct copath as [|c cr]; [injection F as <-; destruct i; discriminate|].
  apply filtered_of_ok in F. destruct F as (e & rest & Re & F & ->). inversion Nd as [|? ? Np Nd']; subst.
  cbn [apply_path_nodes] in A. rewrite Re in A. cbn [bind] in A. destruct i as [|i]; cbn [nth_error] in Hp, Hf.
  - injection Hp as ->. injection Hf as ->. rewrite (apply_path_nodes_off _ _ _ _ _ _ Np A).
    destruct b; [reflexivity|]. rewrite get_set_padded, N.eqb_refl. reflexivity.
  - rewrite (IH _ _ _ _ Nd' F A i x b Hp Hf). destruct b, e; try reflexivity.
    rewrite get_set_padded. destruct (N.eqb_spec x p) as [->|]; [destruct Np; exact (nth_error_In _ _ Hp)|reflexivity].
Qed.

Lemma update_path_effect t1 sndr id t2 flt : small t1 -> apply_update_path t1 sndr id = TOk t2 ->
  let t1' := set t1 (2 * sndr) (Some (Leaf id)) in
  filtered t1' sndr = Ok flt ->
  total_leaf_count t1' = 2 ^ N.of_nat (length flt) /\ 2 * sndr < tlen t1 /\
  (forall x, (forall i, (i < length flt)%nat -> x <> lvl_node (N.of_nat (S i)) sndr) -> get t2 x = get t1' x) /\
  (forall i, nth_error flt i = Some false -> get t2 (lvl_node (N.of_nat (S i)) sndr) = Some (Par [])) /\
  (forall i, nth_error flt i = Some true -> get t2 (lvl_node (N.of_nat (S i)) sndr) = get t1' (lvl_node (N.of_nat (S i)) sndr)).
Proof.
  intros Sm A. cbn zeta. intro F. apply apply_update_path_ok in A. destruct A as ([x0 G] & path & copath & P & Cp & A).
  set (t1' := set t1 (2 * sndr) (Some (Leaf id))) in *. apply get_some_lt in G.
  assert (L1 : tlen t1' = tlen t1) by apply set_length. pose proof (small_set t1 (2 * sndr) (Some (Leaf id)) Sm) as S1.
  destruct (total_leaf_count_spec t1' S1) as (d & Et & _).
  destruct (path_nodes_nth t1' sndr d path S1 ltac:(lia) Et P) as [Lp PathAt].
  destruct (copath_nodes_nth t1' sndr d copath S1 ltac:(lia) Et Cp) as [Lc _].
  unfold filtered in F. rewrite Cp in F. cbn [bind] in F.
  assert (Lf : length flt = N.to_nat d) by (rewrite (filtered_of_length _ _ _ F); exact Lc).
  replace (N.of_nat (length flt)) with d by lia. rewrite Lf.
  assert (Lvl : forall i, nth_error path i <> None -> nth_error path i = Some (lvl_node (N.of_nat (S i)) sndr) /\ (i < N.to_nat d)%nat).
  { intros i Hi. apply nth_error_Some in Hi. rewrite Lp in Hi. split; [exact (PathAt i Hi)|exact Hi]. }
  assert (Nd : NoDup path).
  { apply NoDup_nth_error. intros i j Li E. destruct (Lvl i) as [Ei _]; [apply nth_error_Some; exact Li|].
    destruct (Lvl j) as [Ej _]; [congruence|]. rewrite Ei, Ej in E. injection E as E. apply lvl_node_inj in E. lia. }
  assert (On : forall i b, nth_error flt i = Some b ->
            get t2 (lvl_node (N.of_nat (S i)) sndr) = if b then get t1' (lvl_node (N.of_nat (S i)) sndr) else Some (Par [])).
  { intros i b Hf. apply (apply_path_nodes_at t1' path copath t1' t2 flt Nd F A i); [|exact Hf].
    apply PathAt. rewrite <- Lf. apply nth_error_Some. congruence. }
  split; [exact Et|]. split; [exact G|]. split; [|split; intros i Hf; exact (On i _ Hf)].
  intros x Nx. apply (apply_path_nodes_off t1' x path copath t1' t2); [|exact A].
  intro I. apply In_nth_error in I. destruct I as [j Hj]. destruct (Lvl j) as [Ej Lj]; [congruence|]. apply (Nx j Lj). congruence.
Qed.

Lemma update_path_get t1 sndr id t2 : small t1 -> apply_update_path t1 sndr id = TOk t2 ->
  forall n, ~ ancestor n sndr -> get t2 n = get (set t1 (2 * sndr) (Some (Leaf id))) n.
Proof.
  intros Sm A n Na. apply apply_update_path_ok in A. destruct A as ([x0 G] & path & copath & P & _ & A). apply get_some_lt in G.
  refine (apply_path_nodes_off _ n path copath _ t2 _ A). intro I. apply Na.
  refine (proj1 (Forall_forall _ _) (path_nodes_ancestors _ sndr path (small_set _ _ _ Sm) _ P) n I). rewrite set_length. lia.
Qed.

Lemma apply_update_path_leaves t sndr id t' l : small t -> apply_update_path t sndr id = TOk t' ->
  get t' (2 * l) = get (set t (2 * sndr) (Some (Leaf id))) (2 * l).
Proof.
  intros Sm A. apply (update_path_get t sndr id t' Sm A). intro An. exact (ancestor_not_leaf _ _ l An eq_refl).
Qed.

Lemma apply_update_path_sender_leaf t sndr id t' :
  small t -> apply_update_path t sndr id = TOk t' -> get t' (2 * sndr) = Some (Leaf id).
Proof.
  intros Sm A. rewrite (apply_update_path_leaves _ _ _ _ sndr Sm A). apply get_set_same.
  destruct (apply_update_path_ok _ _ _ _ A) as [[x G] _]. eapply get_some_lt; exact G.
Qed.

(* the two bounds are the range of resolution_of_spec_fuel *)
Lemma filtered_flags t s flt : small t -> 2 * s <= tlen t -> filtered t s = Ok flt ->
  exists d, total_leaf_count t = 2 ^ d /\ length flt = N.to_nat d /\
    forall i b, nth_error flt i = Some b ->
      (i <= 29)%nat /\ (sz i + 1 <= 2 * length t + 4)%nat /\
      resolution_empty t (node (N.of_nat i) (sib (s / 2 ^ N.of_nat i))) = Ok b.
Proof.
  intros Sm L F. destruct (total_leaf_count_spec t Sm) as (d & Et & Hd & _).
  unfold filtered in F. apply bind_ok in F. destruct F as (cp & Cp & F).
  destruct (copath_nodes_nth t s d cp Sm L Et Cp) as [Lc At]. pose proof (filtered_of_length _ _ _ F) as Lf.
  exists d. split; [exact Et|]. split; [lia|]. intros i b Hf.
  assert (Li : (i < N.to_nat d)%nat) by (rewrite <- Lc, <- Lf; apply nth_error_Some; congruence).
  destruct (level_fuel t d i Sm Et Li) as [L29 Fu]. split; [exact L29|]. split; [exact Fu|].
  exact (filtered_of_nth _ _ _ _ _ _ F (At i Li) Hf).
Qed.

Lemma nonblank_level t me d i n : small t -> 2 * me < tlen t -> total_leaf_count t = 2 ^ d ->
  get t (lvl_node (N.of_nat (S i)) me) = Some n -> (i < N.to_nat d)%nat.
Proof.
  intros Sm L Et G. destruct (path_nodes_spec t me Sm ltac:(lia)) as (d' & _ & _ & _ & P & _).
  pose proof (path_position t me _ (S i) n Sm L P ltac:(lia) G) as Pos.
  rewrite <- (proj1 (path_nodes_nth t me d _ Sm ltac:(lia) Et P)). replace i with (S i - 1)%nat by lia.
  apply nth_error_Some. congruence.
Qed.

(* seen from any member: a non-blank ancestor is never filtered *)
Theorem nonblank_ancestor_unfiltered t me jflt :
  shape_ok t -> wf5 t -> small t -> get t (2 * me) <> None -> filtered t me = Ok jflt ->
  forall i um, get t (lvl_node (N.of_nat (S i)) me) = Some (Par um) -> nth_error jflt i = Some false.
Proof.
  intros Sh W Sm Nb F i um G.
  assert (Lm : 2 * me < tlen t) by (destruct (get t (2 * me)) as [n|] eqn:Gm; [eapply get_some_lt; exact Gm|congruence]).
  destruct (filtered_flags t me jflt Sm ltac:(lia) F) as (d & Et & Lf & Flag).
  pose proof (nonblank_level t me d i _ Sm Lm Et G) as Li.
  destruct (nth_error jflt i) as [[|]|] eqn:Hf; [exfalso|reflexivity|apply nth_error_None in Hf; lia].
  destruct (Flag i true Hf) as (L29 & Fu & Re). apply (filtered_node_is_blank t me i Sh W L29 Fu Nb) in Re.
  unfold lvl_node in G. replace (N.of_nat (S i)) with (N.of_nat i + 1) in G by lia. congruence.
Qed.

(* a path node that the update path left alone was filtered, so it was blank *)
Lemma nonblank_path_node_unfiltered t1 sndr id t2 flt :
  shape_ok t1 -> wf5 t1 -> small t1 -> apply_update_path t1 sndr id = TOk t2 ->
  filtered (set t1 (2 * sndr) (Some (Leaf id))) sndr = Ok flt ->
  forall i um, get t2 (lvl_node (N.of_nat (S i)) sndr) = Some (Par um) -> nth_error flt i = Some false.
Proof.
  intros Sh W Sm A F i um G2.
  destruct (update_path_effect t1 sndr id t2 flt Sm A F) as (_ & Lt & Out & _ & Kept).
  assert (U : get (set t1 (2 * sndr) (Some (Leaf id))) (lvl_node (N.of_nat (S i)) sndr) = Some (Par um) -> nth_error flt i = Some false).
  { apply nonblank_ancestor_unfiltered; [apply shape_set_leaf; exact Sh|apply wf5_set_leaf; assumption|apply small_set; exact Sm| |exact F].
    rewrite get_set_same by exact Lt. discriminate. }
  destruct (nth_error flt i) as [[|]|] eqn:Hf; [exfalso|reflexivity|exfalso].
  - rewrite (Kept i Hf) in G2. apply U in G2. congruence.
  - rewrite Out in G2; [apply U in G2; congruence|].
    intros j Lj E. apply lvl_node_inj in E. apply nth_error_None in Hf. lia.
Qed.

Theorem complete_decap t1 sndr id t2 me pr path_me flt fk L :
  shape_ok t1 -> wf5 t1 -> small t1 ->
  apply_update_path t1 sndr id = TOk t2 ->
  filtered (set t1 (2 * sndr) (Some (Leaf id))) sndr = Ok flt ->
  Complete t1 me pr ->
  1 <= L -> me / 2 ^ L = sndr / 2 ^ L -> (forall k, k < L -> me / 2 ^ k <> sndr / 2 ^ k) ->
  path_nodes (set t1 (2 * sndr) (Some (Leaf id))) me = Ok path_me -> 2 * me < tlen t1 ->
  Complete t2 me (decap_priv pr (length path_me) (N.to_nat (L - 1)) (upd_nodes flt 1 fk)).
Proof.
  intros Sh W Sm A F C L1 Eq Ne Pm Lm.
  destruct (update_path_effect t1 sndr id t2 flt Sm A F) as (Et & Lt & _). set (d := N.of_nat (length flt)) in *.
  set (t1' := set t1 (2 * sndr) (Some (Leaf id))) in *.
  pose proof (small_set t1 (2 * sndr) (Some (Leaf id)) Sm : small t1') as S1.
  assert (Lm' : 2 * me < tlen t1') by (unfold t1'; rewrite set_length; exact Lm).
  destruct (path_nodes_nth t1' me d path_me S1 ltac:(lia) Et Pm) as [Lp _].
  apply (complete_by_levels t2 me _ L flt).
  - (* the path has not touched the node, and decap keeps the entry *)
    intros i um Below G2.
    rewrite (update_path_get t1 sndr id t2 Sm A) in G2 by (intro An; apply ancestor_node in An; exact (Ne _ Below (eq_sym An))).
    fold t1' in G2. pose proof (nonblank_level t1' me d i _ S1 Lm' Et G2) as Li.
    unfold t1' in G2. rewrite get_set_other in G2 by (apply not_eq_sym, lvl_node_not_leaf; lia).
    destruct (C (S i) um ltac:(lia) G2) as [[key Hkey]|Hin]; [left|right; exact Hin].
    rewrite nth_error_decap_priv. destruct (Nat.ltb_spec (S i) (length path_me + 2)); [|lia].
    destruct (Nat.leb_spec (N.to_nat (L - 1)) i); [lia|]. cbn [andb]. rewrite Hkey. eexists. reflexivity.
  - intros i um Above G2. rewrite (lvl_node_above me sndr L) in G2 by (assumption || lia).
    exact (nonblank_path_node_unfiltered t1 sndr id t2 flt Sh W Sm A F i um G2).
  - intros i Above Hf. assert (Li : (i < length flt)%nat) by (apply nth_error_Some; congruence).
    pose proof (upd_nodes_length fk flt 1 i Hf) as Lu.
    rewrite nth_error_decap_priv. destruct (Nat.ltb_spec (S i) (length path_me + 2)); [|lia].
    destruct (Nat.leb_spec (N.to_nat (L - 1)) i); [|lia].
    destruct (Nat.ltb_spec i (length (upd_nodes flt 1 fk))); [|lia].
    cbn [andb]. rewrite upd_nodes_nth, Hf. eexists. reflexivity.
Qed.

Theorem complete_encap t1 sndr id t2 pr flt fk leafkey :
  shape_ok t1 -> wf5 t1 -> small t1 ->
  apply_update_path t1 sndr id = TOk t2 ->
  filtered (set t1 (2 * sndr) (Some (Leaf id))) sndr = Ok flt ->
  Complete t2 sndr (encap_priv pr (length flt) flt fk leafkey).
Proof.
  intros Sh W Sm A F. apply (complete_by_levels t2 sndr _ 0 flt).
  - intros i um Lt. lia.
  - intros i um _. exact (nonblank_path_node_unfiltered t1 sndr id t2 flt Sh W Sm A F i um).
  - intros i _ Hf. assert (Li : (i < length flt)%nat) by (apply nth_error_Some; congruence).
    rewrite nth_error_encap_priv, Hf. destruct (Nat.ltb_spec (S i) (length flt + 1)); [|lia]. eexists. reflexivity.
Qed.

Lemma complete_single id me pr : Complete [Some (Leaf id)] me pr.
Proof.
  intros k um Hk G. destruct (get_single _ _ _ G) as [_ H]. discriminate.
Qed.

(* a run: three members, leaf 2 is unmerged at the root; leaf 0 commits with a path *)
Example complete_ex :
  let t1 := [Some (Leaf 10); Some (Par []); Some (Leaf 11); Some (Par [2]); Some (Leaf 12)] in
  apply_update_path t1 0 20 = TOk [Some (Leaf 20); Some (Par []); Some (Leaf 11); Some (Par []); Some (Leaf 12)]
  /\ filtered (set t1 0 (Some (Leaf 20))) 0 = Ok [false; false]
  /\ decap_priv [Some 72; None] 2 (N.to_nat (2 - 1)) (upd_nodes [false; false] 1 (fun k => 100 + k)) = [Some 72; None; Some 102; None].
Proof. vm_compute. repeat split; reflexivity. Qed.

(* the leaf added by add_leaf is unmerged at every non-blank ancestor, and stays so *)
Definition UnmergedAtAll (t : tree) (me : N) : Prop :=
  forall p um, get t p = Some (Par um) -> ancestor p me -> In me um.

Lemma complete_of_unmerged t me pr : UnmergedAtAll t me -> Complete t me pr.
Proof. intros U k um Hk G. right. apply (U _ _ G). apply lvl_node_ancestor. exact Hk. Qed.

Lemma UnmergedAtAll_mono t t' me : ParMono t t' -> UnmergedAtAll t me -> UnmergedAtAll t' me.
Proof. intros M Q p um G A. destruct (M p um G) as (u0 & G0 & I0). apply I0. exact (Q p u0 G0 A). Qed.

Lemma add_leaf_unmerged t id start t' idx : tlen t + 2 < 2 ^ 25 -> add_leaf t id start = TOk (t', idx) -> UnmergedAtAll t' idx.
Proof.
  intros S A. apply add_leaf_ok in A. destruct A as (_ & L1 & path & P & U).
  pose proof (insert_leaf_length t idx (Leaf id)) as Ln.
  intros p um G An. eapply update_unmerged_marks; [exact U| |exact G].
  apply (path_nodes_complete (insert_leaf t idx (Leaf id)) idx path p); [unfold small; lia|exact L1|exact P|exact An|].
  rewrite <- (update_unmerged_length _ _ _ _ U). eapply get_some_lt. exact G.
Qed.

Lemma apply_adds_unmerged ids : forall t start acc t' added me,
  tlen t + 2 * N.of_nat (length ids) < 2 ^ 25 ->
  apply_adds t ids start acc = TOk (t', added) -> In me added -> In me (rev acc) \/ UnmergedAtAll t' me.
Proof.
  induction ids as [|id rest IH]; intros t start acc t' added me S E I.
  - left. cbn [apply_adds] in E. congruence.
  - apply apply_adds_cons in E. destruct E as (t1 & idx & A & E).
    cbn [length] in S. pose proof (add_leaf_length _ _ _ _ _ A) as L1.
    destruct (IH t1 idx (idx :: acc) t' added me ltac:(lia) E I) as [Ir|Q]; [|right; exact Q].
    cbn [rev] in Ir. apply in_app_or in Ir. destruct Ir as [Ir|[<-|[]]]; [left; exact Ir|right].
    eapply UnmergedAtAll_mono; [eapply ParMono_apply_adds; exact E|eapply add_leaf_unmerged; [|exact A]; lia].
Qed.

Theorem added_member_unmerged t removes updates adds t1 added me :
  tlen t + 2 * N.of_nat (length adds) < 2 ^ 25 ->
  batch_edit t removes updates adds = TOk (t1, added) -> In me added -> UnmergedAtAll t1 me.
Proof.
  intros S B I. apply batch_edit_ok in B. destruct B as (ta & tb & tc & td & _ & _ & _ & A & -> & _ & _ & Lc).
  destruct (apply_adds_unmerged adds tc 0 [] td added me ltac:(lia) A I) as [[]|Q].
  eapply UnmergedAtAll_mono; [apply ParMono_trim|exact Q].
Qed.

Theorem joiner_unmerged_below t removes updates adds t1 added me sndr id t2 L :
  tlen t + 2 * N.of_nat (length adds) < 2 ^ 25 -> small t1 ->
  batch_edit t removes updates adds = TOk (t1, added) -> In me added ->
  apply_update_path t1 sndr id = TOk t2 ->
  (forall k, k < L -> me / 2 ^ k <> sndr / 2 ^ k) ->
  forall i um, N.of_nat (S i) < L -> get t2 (lvl_node (N.of_nat (S i)) me) = Some (Par um) -> In me um.
Proof.
  intros Sz S1 B I A Ne i um Lt G2.
  rewrite (update_path_get t1 sndr id t2 S1 A) in G2 by (intro An; apply ancestor_node in An; exact (Ne _ Lt (eq_sym An))).
  rewrite get_set_other in G2 by (apply not_eq_sym, lvl_node_not_leaf; lia).
  exact (added_member_unmerged _ _ _ _ _ _ me Sz B I _ um G2 (lvl_node_ancestor (S i) me ltac:(lia))).
Qed.

Theorem complete_join t removes updates adds t1 added me sndr id t2 L jflt ks leafkey pr :
  tlen t + 2 * N.of_nat (length adds) < 2 ^ 25 -> small t1 ->
  batch_edit t removes updates adds = TOk (t1, added) -> In me added ->
  apply_update_path t1 sndr id = TOk t2 ->
  shape_ok t2 -> wf5 t2 -> small t2 -> get t2 (2 * me) <> None ->
  1 <= L -> (forall k, k < L -> me / 2 ^ k <> sndr / 2 ^ k) ->
  filtered t2 me = Ok jflt ->
  join_priv ks me leafkey jflt (N.to_nat (L - 1)) = Some pr ->
  Complete t2 me pr.
Proof.
  intros Sz S1 B I A Sh2 W2 Sm2 Nb HL Ne F J.
  unfold join_priv in J. destruct (join_levels ks me jflt 0 (N.to_nat (L - 1))) as [l|] eqn:E; [|discriminate].
  injection J as <-. apply (complete_by_levels t2 me _ L jflt).
  - intros i um Lt G. right. exact (joiner_unmerged_below t removes updates adds t1 added me sndr id t2 L Sz S1 B I A Ne i um Lt G).
  - intros i um _ G. exact (nonblank_ancestor_unfiltered t2 me jflt Sh2 W2 Sm2 Nb F i um G).
  - intros i Ge Hf. destruct (join_levels_nth ks me jflt 0 _ l E i) as [En Key]. specialize (Key false Hf).
    cbn [nth_error]. rewrite En, Hf. destruct (Nat.leb_spec (N.to_nat (L - 1)) (0 + i)); [|lia].
    destruct (ks (lvl_node (N.of_nat (S (0 + i))) me)) as [x|]; [exists x; reflexivity|exfalso; exact (Key eq_refl eq_refl)].
Qed.

Theorem complete_decap_finds_ciphertext_res t me pr k excl id leafkey :
  shape_ok t -> Complete t me pr ->
  resolution_of t (lvl_node (N.of_nat k) me) = Ok (reso_spec t k (me / 2 ^ N.of_nat k)) ->
  get t (2 * me) = Some (Leaf id) -> ~ In me excl ->
  nth_error pr O = Some (Some leafkey) ->
  exists i key, decap_select t me pr k excl = Ok (Some (i, key)).
Proof.
  intros Sh C R Gl Nx K0. eapply decap_select_complete_res; try eassumption.
  cbn zeta. destruct (Nat.eq_dec (down t me k) 0) as [Z|NZ]; [left; rewrite Z; eexists; exact K0|].
  pose proof (down_nonblank t me k NZ) as Nb.
  destruct (get t (lvl_node (N.of_nat (down t me k)) me)) as [[x|um]|] eqn:G; [|clear Nb|congruence].
  - destruct (shape_parent_slot _ _ _ Sh (lvl_node_odd (N.of_nat (down t me k)) me ltac:(lia)) G).
  - destruct (C (down t me k) um ltac:(lia) G) as [H|H]; [left; exact H|right; exists um; split; [reflexivity|exact H]].
Qed.

Theorem complete_decap_finds_ciphertext t me pr k excl id leafkey :
  shape_ok t -> Complete t me pr ->
  (k <= 29)%nat -> lvl_node (N.of_nat k) me < tlen t ->
  get t (2 * me) = Some (Leaf id) -> ~ In me excl ->
  nth_error pr O = Some (Some leafkey) ->
  exists i key, decap_select t me pr k excl = Ok (Some (i, key)).
Proof.
  intros Sh C Lk B Gl Nx K0. eapply complete_decap_finds_ciphertext_res; try eassumption.
  unfold lvl_node. apply resolution_of_spec; assumption.
Qed.

Corollary complete_own_update t removes updates adds t1 added me pr :
  tlen t + 2 * N.of_nat (length adds) < 2 ^ 25 ->
  batch_edit t removes updates adds = TOk (t1, added) -> In me (map fst updates) -> Complete t1 me pr.
Proof.
  (* after the proposals no node of the member's direct path is a parent *)
  intros S B I k um Hk G. exfalso. apply batch_edit_ok in B. destruct B as (ta & tb & tc & td & _ & U & B & A & -> & La & Lb & _).
  destruct (ParMono_trans _ _ _ (ParMono_apply_adds _ _ _ _ _ _ A) (ParMono_trim td) _ _ G) as (u & Gu & _).
  rewrite (blank_paths_blanks (map fst updates) tb tc ltac:(unfold small; lia)
             ltac:(rewrite Lb, <- La; exact (apply_updates_in_tree _ _ _ U)) B me _ I (lvl_node_ancestor k me Hk)) in Gu.
  discriminate.
Qed.
